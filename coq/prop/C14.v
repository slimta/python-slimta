(* C14 -- no peer can hold a session or delivery attempt beyond its configured timeouts.
   PARTIAL by nature: real timers, TLS and the OS are outside the model.  What is here:
   (1) a timed model of the server session and of a relay attempt with bounds for every
       input timing; (2) obligations over gen/TimeoutTable.v, the table "blocking call
       site -> enclosing `with Timeout(...)`" that tools/timeouts_ast.py regenerates from
       /repo's current source on every build -- these are the statements that stop
       compiling when a blocking call leaves its timeout scope. *)
From Coq Require Import List NArith Bool String.
From SV Require Import lib.Bytes model.Timeouts proof.Timeouts_lemmas gen.TimeoutTable.
Import ListNotations.
Open Scope N_scope.

(* `known_unguarded` (method, callee) is generated beside the table from the entries
   c14:unguarded:<method>:<callee> with status `known` of /verif/known_findings.json and
   printed below; it is the ONLY way a site is excused, so a new unguarded site breaks
   C14_table_all_guarded, and an entry flipped to `fixed` tightens it by itself.  With the
   server-side repairs (TLS handshake and every reply write bounded by command_timeout)
   nothing remains: the list is [] and the theorem is the statement without exceptions. *)
Print known_unguarded.

(* Every call that waits for the peer (connect, command/reply exchange, read, write, TLS
   handshake, subprocess, HTTP request) in SmtpRelayClient, LmtpRelayClient, Server,
   PipeRelay/MaildropRelay/DovecotLdaRelay and HttpRelayClient lies, on every call path,
   inside `with Timeout(<connect|command|data|single configured timeout>)`, except the
   sites of known_unguarded (none when that list is []). *)
Theorem C14_table_all_guarded : all_guarded known_unguarded timeout_table = true.
Proof. vm_compute. reflexivity. Qed.
Print Assumptions C14_table_all_guarded.

(* The scopes the timed models below stand for are the ones in the source: every method
   on the relay client's attempt path has one scope of the expected kind, and the
   server's two reads sit in command_timeout resp. data_timeout. *)
Theorem C14_table_model_scopes :
  path_scopes_ok timeout_table "SmtpRelayClient" = true
  /\ path_scopes_ok timeout_table "LmtpRelayClient" = true
  /\ server_scopes_ok timeout_table = true
  /\ method_scope timeout_table "PipeRelay" "_exec_process" = Some TSingle
  /\ method_scope timeout_table "MaildropRelay" "_exec_process" = Some TSingle
  /\ method_scope timeout_table "DovecotLdaRelay" "_exec_process" = Some TSingle
  /\ method_scope timeout_table "HttpRelayClient" "_handle_request" = Some TSingle.
Proof. rewrite !path_scopes_ok_shared. vm_compute. repeat split; reflexivity. Qed.
Print Assumptions C14_table_model_scopes.

(* Every timeout attribute a scope reads is derived in __init__ from constructor parameters
   by a fallback chain that ends in a parameter the configuration always supplies
   (connect/command timeout, the single timeout): `self.data_timeout = data_timeout or
   command_timeout`.  Dropping the fallback leaves `Timeout(None)` scopes -- present in the
   table, bounding nothing -- and breaks this obligation. *)
Theorem C14_table_timeouts_have_fallback : timeouts_have_fallback timeout_table attr_defaults = true.
Proof. vm_compute. reflexivity. Qed.
Print Assumptions C14_table_timeouts_have_fallback.

(* Server: for EVERY input timing (any chunks, any delays, any command interpreter) the
   session ends with exactly one closing event, no later than command_timeout after the
   last completed command, resp. the (cumulative) data timeout after DATA began; when it
   ends by timeout it is exactly then. *)
Theorem C14_server_bound :
  forall (S : Type) (interp : S -> bytes -> S * action) (data_done : S -> S) (s0 : S)
         (Tc : N) (dcfg : option N) (input : list (N * bytes)),
    let cfg := {| c_cmd := Some Tc; c_data := dcfg |} in
    exists pre t w l,
      run_server S interp data_done cfg s0 input = (pre ++ [EClosed t w])%list
      /\ Forall (fun e => ev_time e <> None) pre
      /\ limit_of cfg (phase_from PCmd pre) = Some l
      /\ t <= anchor_from 0 pre + l
      /\ (w = WTimeout -> t = anchor_from 0 pre + l).
Proof. exact server_bound. Qed.
Print Assumptions C14_server_bound.

(* ... in particular a peer that trickles bytes for ever without finishing a line is cut
   off exactly command_timeout after the banner, whatever the gaps between its bytes. *)
Theorem C14_server_trickle_no_line :
  forall (S : Type) (interp : S -> bytes -> S * action) (data_done : S -> S) (s0 : S)
         (Tc : N) (dcfg : option N) (input : list (N * bytes)),
    Forall (fun dc => snd dc <> [] /\ Forall (fun b => (b =? 10) = false) (snd dc)) input ->
    run_server S interp data_done {| c_cmd := Some Tc; c_data := dcfg |} s0 input
    = [EClosed Tc WTimeout].
Proof. exact server_no_line. Qed.
Print Assumptions C14_server_trickle_no_line.

(* Client: GIVEN every stage is inside a scope, the attempt's result is delivered, for
   every behaviour of the peer (each awaited reply after any delay or never), within the
   sum of the stages' timeouts; it never blocks for ever. *)
Theorem C14_client_bound :
  forall cfg stages ds,
    forallb (stage_guarded cfg) stages = true ->
    match run_attempt cfg 0 0 stages ds with
    | CDone t | CTimedOut _ t => t <= sum_limits cfg stages
    | CStuck _ => False
    end.
Proof. intros cfg stages ds H. exact (attempt_bound cfg stages 0 0 ds H). Qed.
Print Assumptions C14_client_bound.

(* ... and without that guard it does not hold: a stage outside every scope whose
   awaited reply never comes blocks for ever. *)
Theorem C14_client_unguarded_stuck :
  forall cfg s post ds,
    scope_limit cfg (cs_scope s) = None -> cs_waits s <> O ->
    run_attempt cfg 0 0 (s :: post) (None :: ds) = CStuck 0.
Proof. intros cfg s post ds. exact (attempt_unguarded_stuck cfg s post 0 0 ds). Qed.
Print Assumptions C14_client_unguarded_stuck.

(* Client, with the scopes of the CURRENT source: an SMTP or LMTP delivery attempt
   (tls_immediately / STARTTLS / AUTH / PIPELINING on or off, any number of recipients,
   accepted or all refused, EHLO accepted or refused with 500 -> HELO fallback) returns within
   connect_timeout + (#command stages) * command_timeout + data_timeout. *)
Theorem C14_client_bound_table :
  forall (a : acfg) (cfg : ccfg) (ds : list (option N)),
    match run_attempt cfg 0 0 (stages_of timeout_table a) ds with
    | CDone t | CTimedOut _ t => t <= attempt_limit cfg a
    | CStuck _ => False
    end.
Proof.
  intros a cfg ds. apply client_bound_of_table.
  destruct C14_table_model_scopes as (Hsmtp & Hlmtp & _).
  unfold client_class. destruct (a_lmtp a); assumption.
Qed.
Print Assumptions C14_client_bound_table.

(* ... for every way of configuring the client (each timeout given or omitted: omitted
   connect/command default to 10 s, an omitted data timeout falls back to the command
   timeout), so a stall in the data stage of a client configured with command_timeout only
   is cut after command_timeout. *)
Theorem C14_client_bound_config :
  forall (u : N) (r : rawcfg) (a : acfg) (ds : list (option N)),
    match run_attempt (eff_ccfg u r) 0 0 (stages_of timeout_table a) ds with
    | CDone t | CTimedOut _ t => t <= attempt_limit (eff_ccfg u r) a
    | CStuck _ => False
    end
    /\ (r_data r = None -> t_data (eff_ccfg u r) = t_command (eff_ccfg u r)).
Proof.
  intros u r a ds. split; [apply C14_client_bound_table | apply eff_data_fallback].
Qed.
Print Assumptions C14_client_bound_config.
