(* C08 - nothing crosses the STARTTLS boundary; AUTH only when permitted.
   Each theorem is put together in a few lines from lemmas of proof/Tls_lemmas.v; the model is
   model/Tls.v (which extends model/Server.v).  `mechs` (pysasl's mechanism table), the
   environment `nv` (validator verdicts, handoff results, handshake outcome), the configuration,
   the fuel (number of lines looked at) and the wire (the chunks the plain socket and the TLS
   socket deliver, i.e. every byte string pipelined anywhere) are universally quantified in
   every theorem.
   A session run is the list of its steps (state before, output, state after), one step per
   line taken from recv_buffer (command line, AUTH answer line, line of message content). *)
From Coq Require Import List NArith Bool.
From SV Require Import lib.Bytes model.Server model.Tls proof.Tls_lemmas.
Import ListNotations.
Open Scope N_scope.

(* Server: every line consumed while the session is encrypted - command, AUTH answer, message
   content - consists only of bytes that were read from the TLS socket, and whatever is left in
   recv_buffer of an encrypted session was read from the TLS socket.
   Client: every reply parsed while the client is encrypted was built from such bytes only. *)
Theorem C08_no_plaintext_after_tls :
  (forall mechs nv fuel cfg w x, In x (t_session mechs fuel cfg nv w) ->
     to_enc (snd (fst x)) = t_enc (pre_of x) /\
     (to_enc (snd (fst x)) = true -> all_tls (to_line (snd (fst x))) = true) /\
     (t_enc (post_of x) = true -> all_tls (t_buf (post_of x)) = true)) /\
  (forall hs w ops,
     Forall (fun o => ko_enc o = true -> all_tls (ko_used o) = true) (k_run hs (k_init w) ops)).
Proof.
  split.
  - intros mechs nv fuel cfg w x Hx. pose proof (session_all mechs nv fuel cfg w x Hx) as Q.
    exact (conj (q_encflag Q) (conj (from_tls _ _ (q_line Q)) (from_tls _ _ (i_buf (q_inv Q))))).
  - intros hs w ops. exact (Forall_impl _ (fun o => from_tls _ _) (client_reads_one_socket hs w ops)).
Qed.
Print Assumptions C08_no_plaintext_after_tls.

(* The step that turns a session encrypted leaves the just-greeted state: no EHLO identity, no
   transaction in Server and no envelope in SmtpSession, STARTTLS not offered, recv_buffer empty;
   STARTTLS is never offered on an encrypted session (immediate TLS included); and in that state
   MAIL, RCPT, DATA, AUTH and STARTTLS reach no handler and change nothing. *)
Theorem C08_state_after_tls :
  (forall mechs nv fuel cfg w x, In x (t_session mechs fuel cfg nv w) ->
     (t_enc (pre_of x) = false -> t_enc (post_of x) = true ->
        s_ehlo (sv (t_st (post_of x))) = None /\ s_mail (sv (t_st (post_of x))) = false /\
        s_rcpt (sv (t_st (post_of x))) = false /\ x_starttls (ex (t_st (post_of x))) = false /\
        e_env (ed (t_st (post_of x))) = None /\ e_tls (ed (t_st (post_of x))) = true /\
        t_buf (post_of x) = [] /\ t_mode (post_of x) = MCmd /\ In (TCall true EvTls) (ev_of x)) /\
     (t_enc (post_of x) = true -> x_starttls (ex (t_st (post_of x))) = false)) /\
  (forall mechs nv st l, greeted st ->
     match classify l with CMail | CRcpt | CData | CAuth | CStarttls => True | _ => False end ->
     sr_st (t_exec_cmd mechs nv st l) = st /\ sr_events (t_exec_cmd mechs nv st l) = [] /\
     sr_mode (t_exec_cmd mechs nv st l) = MCmd).
Proof.
  split; [|exact greeted_refuses]. intros mechs nv fuel cfg w x Hx.
  pose proof (session_all mechs nv fuel cfg w x Hx) as Q. split; [|exact (i_stls (q_inv Q))].
  intros Ha Hb. destruct (ok_enc (q_step Q)) as [H|(? & -> & ? & ?)]; [unfold t_enc in *; congruence|].
  repeat split; assumption.
Qed.
Print Assumptions C08_state_after_tls.

(* Known finding c08:edge-ehlo-identity-survives-starttls (the suite pins it):
   SmtpSession.ehlo_as keeps the name given in clear text ... *)
Theorem C08_edge_ehlo_survives_refuted : exists mechs nv fuel cfg w x,
  In x (t_session mechs fuel cfg nv w) /\ t_enc (pre_of x) = false /\ t_enc (post_of x) = true /\
  e_ehlo (ed (t_st (post_of x))) <> None.
Proof. exact edge_ehlo_survives. Qed.
Print Assumptions C08_edge_ehlo_survives_refuted.

(* ... but in every reachable state, whenever Server has an EHLO identity (the precondition of
   MAIL and AUTH) SmtpSession holds the same one: the stale name never gets into a transaction. *)
Theorem C08_edge_identity_partial : forall mechs nv fuel cfg w x a,
  In x (t_session mechs fuel cfg nv w) ->
  s_ehlo (sv (t_st (post_of x))) = Some a -> e_ehlo (ed (t_st (post_of x))) = Some a.
Proof. intros mechs nv fuel cfg w x a Hx. apply (i_fresh (q_inv (session_all mechs nv fuel cfg w x Hx))). Qed.
Print Assumptions C08_edge_identity_partial.

(* "Before EHLO" means: before a greeting the APPLICATION accepted.  In any session, if Server has an
   EHLO identity `a` after some step, then in that step or an earlier one the EHLO or HELO handler
   was called with `a` and left the reply at 250 (a greeting rejected by the handler - 550, 450,
   421, an exception - never creates or changes the identity; a rejected EHLO after an accepted one
   keeps the old identity).  In particular, when the application accepts no greeting there is never
   an identity, before or after the handshake, immediate TLS included - so by C08_auth_gating /
   C08_state_after_tls AUTH, MAIL and STARTTLS are refused throughout. *)
Theorem C08_identity_only_from_accepted_greeting :
  (forall mechs nv fuel cfg w pre x post a,
     t_session mechs fuel cfg nv w = pre ++ x :: post ->
     s_ehlo (sv (t_st (post_of x))) = Some a ->
     exists y, In y (pre ++ [x]) /\ hello_ev nv a (ev_of y)) /\
  (forall mechs nv fuel cfg w x,
     (forall k a, (k = KEhlo \/ k = KHelo) -> apply_verdict (nv_vf nv k a) 250 <> Some 250) ->
     In x (t_session mechs fuel cfg nv w) -> s_ehlo (sv (t_st (post_of x))) = None).
Proof. split; [exact session_ehlo|exact rejected_greetings_no_identity]. Qed.
Print Assumptions C08_identity_only_from_accepted_greeting.

(* AUTH is refused (one 5xx reply, no handler, no challenge, nothing changed) before EHLO, after
   a successful AUTH, inside a transaction, and for a plain-text mechanism on an unencrypted
   session; and in every session every call of the AUTH handler happened in a state that passes
   all of these gates, with the encryption flag of that state. *)
Theorem C08_auth_gating :
  (forall mechs nv st arg,
     s_ehlo (sv st) = None \/ s_authed (sv st) = true \/ s_mail (sv st) = true ->
     refused st (t_command_AUTH mechs nv st arg)) /\
  (forall mechs nv st arg n m,
     mech_named arg n -> mechs n = Some m -> m_insecure m = true -> s_encrypted (sv st) = false ->
     refused st (t_command_AUTH mechs nv st arg)) /\
  (forall mechs nv fuel cfg w x enc c code,
     In x (t_session mechs fuel cfg nv w) -> In (TAuth enc c code) (ev_of x) ->
     enc = t_enc (pre_of x) /\ exists m, gate (t_st (pre_of x)) m).
Proof.
  split; [exact auth_refused_state|split; [exact auth_refused_insecure|]].
  intros mechs nv fuel cfg w x enc c code Hx Hin.
  destruct (ok_tauth (q_step (session_all mechs nv fuel cfg w x Hx)) enc c code Hin) as (He & m & G & _). eauto.
Qed.
Print Assumptions C08_auth_gating.

(* Every AUTH command line and every answer line of an AUTH exchange either reaches the
   application (one handler call; what happens then is the application's decision) or gets exactly
   one reply, 334 or 5xx, no handler is called and the session continues (never 421, never an
   exception); a bare AUTH, an unparsable argument and an unknown mechanism are refused with 5xx. *)
Theorem C08_malformed_auth_replies :
  (forall mechs nv ts ts' o,
     t_step mechs nv ts = (ts', o) -> to_fin o <> TLost -> is_auth_step ts (to_line o) ->
     (exists enc c code, to_events o = [TAuth enc c code]) \/
     (to_events o = [] /\ to_fin o = TContinue /\
      exists c, to_replies o = [c] /\ (c = 334 \/ err5 c))) /\
  (forall mechs nv st, refused st (t_command_AUTH mechs nv st None)) /\
  (forall mechs nv st arg,
     parse_auth_arg (arg_bytes arg) = PBad \/ (exists n, mech_named arg n /\ mechs n = None) ->
     refused st (t_command_AUTH mechs nv st arg)).
Proof.
  split; [exact step_auth_shape|split; [|exact auth_refused_unknown]].
  intros mechs nv st. exact (auth_refused_unknown mechs nv st None (or_introl eq_refl)).
Qed.
Print Assumptions C08_malformed_auth_replies.

(* If a session is authenticated after some step, then in that step or an earlier one the AUTH
   handler returned with the reply still 235; SmtpSession.auth changes only in such a step, to the
   identity of the credentials that handler was given. *)
Theorem C08_authed_only_on_235 :
  (forall mechs nv fuel cfg w pre x post,
     t_session mechs fuel cfg nv w = pre ++ x :: post ->
     s_authed (sv (t_st (post_of x))) = true ->
     exists y, In y (pre ++ [x]) /\ has_235 (ev_of y)) /\
  (forall mechs nv fuel cfg w x, In x (t_session mechs fuel cfg nv w) ->
     e_auth (ed (t_st (post_of x))) = e_auth (ed (t_st (pre_of x))) \/
     exists enc c, In (TAuth enc c (Some 235)) (ev_of x) /\
                   e_auth (ed (t_st (post_of x))) = Some (cr_cid c)).
Proof.
  split.
  - intros mechs nv fuel cfg w pre x post.
    apply (session_origin mechs nv (fun st => s_authed (sv st) = true) has_235); [exact (fun x Q => ok_authed (q_step Q))|congruence].
  - intros mechs nv fuel cfg w x Hx. exact (ok_eauth (q_step (session_all mechs nv fuel cfg w x Hx))).
Qed.
Print Assumptions C08_authed_only_on_235.

(* The base64 the code uses decodes what it encodes, and what it encodes is ONE line of any length
   (no CR, LF or blank; 4 characters per 3 bytes): a SASL response never spills into a second
   line; an exchange in which the client sends the
   SASL responses rs (base64, the first one possibly with the AUTH command) ends exactly like the
   mechanism run on rs themselves, paired with the challenges it issued: the credentials given to
   the handler are the mechanism's result on the client's bytes; for PLAIN these are the three
   UTF-8 fields of the client's message, whatever code points they encode. *)
Theorem C08_credentials_exact :
  (forall s, Forall byte_ok s -> b64_dec (b64_enc s) = Some s) /\
  (forall s, Forall line_safe (b64_enc s) /\ length (b64_enc s) = Nat.mul 4 (Nat.div (Nat.add (length s) 2) 3)) /\
  (forall nv st m rs resps, Forall (Forall byte_ok) rs ->
     feed nv st (auth_turn nv st m resps) (map b64_enc rs) = spec_result nv st m (mech_run m resps rs)) /\
  (forall nv st m d r0 rs, m_attempt m [] = MChal d -> Forall byte_ok r0 -> Forall (Forall byte_ok) rs ->
     feed nv st (auth_response nv st m [] d (b64_enc r0)) (map b64_enc rs)
     = spec_result nv st m (mech_run m [] (r0 :: rs))) /\
  (forall nv st c enc c' code, In (TAuth enc c' code) (sr_events (auth_finish nv st c)) -> c' = c) /\
  (forall ch zid cid sec rest,
     no_nul zid -> no_nul cid -> no_nul sec -> cid <> [] ->
     is_utf8 zid = true -> is_utf8 cid = true -> is_utf8 sec = true ->
     plain_attempt ((ch, zid ++ 0 :: cid ++ 0 :: sec) :: rest) =
     MCreds {| cr_kind := 0; cr_cid := cid; cr_secret := sec;
               cr_zid := match zid with [] => cid | _ => zid end |}).
Proof.
  split; [exact b64_roundtrip|]. split; [intro s; split; [apply b64_enc_one_line|apply b64_enc_length]|].
  split; [exact feed_exact|]. split; [exact feed_exact_initial|].
  split; [exact finish_event|exact plain_exact].
Qed.
Print Assumptions C08_credentials_exact.

(* An AUTH exchange is a function of the AUTH line and of the answer lines of THIS exchange only.
   The session state has no slot in which an earlier AUTH attempt could leave anything: what the
   AUTH command does (replies, 334 payload, handler call with its credentials, next mode) is the same in
   any two states that agree on the five gate bits (AUTH offered, EHLO identity present, authenticated,
   transaction open, encrypted), whatever happened before - in particular whatever an earlier, refused
   AUTH line carried as its initial response, in clear text or not - and likewise every answer line
   (given the mechanism, the challenge and the responses of this exchange); the state it leaves is
   the state before it, changed only by a 235 the handler kept. *)
Theorem C08_auth_exchange_independent_of_earlier_attempts :
  (forall mechs nv st1 st2 arg, gate_view st1 = gate_view st2 ->
     auth_view (t_command_AUTH mechs nv st1 arg) = auth_view (t_command_AUTH mechs nv st2 arg)) /\
  (forall nv st1 st2 m resps chal resp, s_encrypted (sv st1) = s_encrypted (sv st2) ->
     auth_view (auth_response nv st1 m resps chal resp) = auth_view (auth_response nv st2 m resps chal resp)) /\
  (forall mechs nv st arg,
     sr_st (t_command_AUTH mechs nv st arg) = st \/
     exists c, In (TAuth (s_encrypted (sv st)) c (Some 235)) (sr_events (t_command_AUTH mechs nv st arg)) /\
               sr_st (t_command_AUTH mechs nv st arg) =
               {| sv := set_authed true (sv st); ex := ex st; ed := set_e_auth (Some (cr_cid c)) (ed st) |}).
Proof. split; [exact auth_command_independent|split; [exact view_response|exact auth_command_state]]. Qed.
Print Assumptions C08_auth_exchange_independent_of_earlier_attempts.
