(* C11 - a relay reports success only for recipients the next hop accepted.
   Statements, read off the lemmas of proof/RelayClient_lemmas.v; model in model/RelayClient.v
   (the code after fixes d7, d14, d15, d18, d20, d28, d29 and the reply-line fix). *)
From Coq Require Import List NArith Lia.
From SV Require Import gen.UnicodeTables model.RelayClient proof.RelayClient_lemmas.
Import ListNotations.
Open Scope N_scope.

(* envelope.recipients may hold the same address several times; the result mapping is keyed by
   address.  own msg i j: positions i and j hold the same address. *)

(* THE per-recipient statement: what the mapping holds for the address at position i is justified
   by the replies to the occurrences of that same address and by the message replies only
   (RJust: delivered / failed with the class of an error reply to an own occurrence), never by a
   reply given to another address; the mapping has an entry for every position. *)
Theorem C11_result_from_own_replies : forall sc cfg msgs m l i t,
  lookup_res (results (run_client sc cfg msgs)) m = Some (MMap l) -> nth_error l i = Some t ->
  exists msg, msg_at msgs m = Some msg /\ length l = length (m_rcpts msg) /\ RJust sc cfg m msg i t.
Proof.
  intros sc cfg msgs m l i t Hl Hn. destruct (run_results_ok sc cfg msgs m _ Hl) as (msg & Hm & Hlen & Hj).
  exists msg. auto.
Qed.
Print Assumptions C11_result_from_own_replies.

Theorem C11_failed_own_class : forall sc cfg msgs m l i c,
  lookup_res (results (run_client sc cfg msgs)) m = Some (MMap l) -> nth_error l i = Some (TFailed c) ->
  exists msg j, msg_at msgs m = Some msg /\ own msg i j /\ occ_failed sc m j c.
Proof.
  intros sc cfg msgs m l i c Hl Hn.
  destruct (C11_result_from_own_replies _ _ _ _ _ _ _ Hl Hn) as (msg & Hm & _ & j & Hj & Hf). eauto.
Qed.
Print Assumptions C11_failed_own_class.

(* An address is reported delivered only if MAIL was answered 2xx, DATA 2xx/3xx and
   SMTP: every RCPT given for it and end-of-data were answered 2xx;
   LMTP: one RCPT given for it was answered 2xx and the data reply owned by that RCPT was 2xx.
   Guard: the reply alphabet of the property (no 3xx where the protocol defines none, at the
   occurrences of this address); its complement is the known finding
   c11:3xx-at-rcpt-or-eod-counted-as-accepted.  No assumption about duplicate recipients. *)
Theorem C11_success_sound_smtp_partial : forall sc cfg msgs m msg i,
  msg_at msgs m = Some msg -> no_r3_own sc cfg m msg i ->
  smtp_final sc cfg msgs m i = FDelivered ->
  reply sc (Mail m) = R2 /\ (reply sc (Data m) = R2 \/ reply sc (Data m) = R3) /\
  if c_lmtp cfg
  then exists j, own msg i j /\ reply sc (Rcpt m (N.of_nat j)) = R2 /\ reply sc (Eod m (N.of_nat j)) = R2
  else (forall j, own msg i j -> reply sc (Rcpt m (N.of_nat j)) = R2) /\ reply sc (Eod m 0) = R2.
Proof. exact smtp_success_sound. Qed.
Print Assumptions C11_success_sound_smtp_partial.

(* pairwise distinct recipients: the statement about position i alone *)
Theorem C11_success_sound_smtp_nodup : forall sc cfg msgs m msg i,
  msg_at msgs m = Some msg -> NoDup (m_addrs msg) ->
  reply sc (Mail m) <> R3 -> reply sc (Rcpt m (N.of_nat i)) <> R3 ->
  reply sc (Eod m (eodix cfg (N.of_nat i))) <> R3 ->
  smtp_final sc cfg msgs m i = FDelivered ->
  reply sc (Mail m) = R2 /\ reply sc (Rcpt m (N.of_nat i)) = R2 /\
  (reply sc (Data m) = R2 \/ reply sc (Data m) = R3) /\
  reply sc (Eod m (eodix cfg (N.of_nat i))) = R2.
Proof. exact smtp_success_sound_nodup. Qed.
Print Assumptions C11_success_sound_smtp_nodup.

(* without the guard: a 3xx reply to end-of-data counts as acceptance (Reply.is_error) *)
Theorem C11_success_sound_smtp_refuted :
  exists sc cfg msgs m i,
    smtp_final sc cfg msgs m i = FDelivered /\ reply sc (Eod m (eodix cfg (N.of_nat i))) = R3.
Proof. exists sc_eod3, cfg_plain, [msg1], 0, 0%nat. vm_compute. split; reflexivity. Qed.
Print Assumptions C11_success_sound_smtp_refuted.

(* what holds for every script, in the client's own terms (Reply.is_error) *)
Theorem C11_success_sound_smtp_is_error : forall sc cfg msgs m i,
  smtp_final sc cfg msgs m i = FDelivered ->
  exists msg, msg_at msgs m = Some msg /\
    nonerr sc (Mail m) /\ nonerr sc (Data m) /\
    if c_lmtp cfg
    then (exists j, own msg i j /\ reply sc (Rcpt m (N.of_nat j)) = R2 /\ nonerr sc (Eod m (N.of_nat j))) \/
         (forall j, own msg i j -> reply sc (Rcpt m (N.of_nat j)) = R3)
    else (forall j, own msg i j -> nonerr sc (Rcpt m (N.of_nat j))) /\ nonerr sc (Eod m 0).
Proof.
  intros sc cfg msgs m i H. generalize (smtp_final_inv sc cfg msgs m i). rewrite H.
  intros (msg & Hm & _ & Hj). exists msg. split; [exact Hm | exact Hj].
Qed.
Print Assumptions C11_success_sound_smtp_is_error.

(* a permanent failure is reported only on a 5xx reply at a stage of this connection/request
   (or 8-bit body that cannot be converted, AUTH configured but not offered, an address that cannot
   be encoded); a transient one only on a 4xx, malformed reply / bad reply code, disconnect, stall
   or failed connect *)
Theorem C11_classification_smtp : forall sc cfg msgs m i,
  (smtp_final sc cfg msgs m i = FPermanent -> PermCause sc cfg msgs m) /\
  (smtp_final sc cfg msgs m i = FTransient -> TransCause sc cfg m).
Proof. intros sc cfg msgs m i. split; intros H; generalize (smtp_final_inv sc cfg msgs m i); now rewrite H. Qed.
Print Assumptions C11_classification_smtp.

(* "if" directions: an address all of whose RCPTs were rejected (or MAIL / DATA rejected) is reported
   with the class of the rejection when the script holds no cause of the other class *)
Theorem C11_classification_smtp_5xx : forall sc cfg msgs m msg i,
  msg_at msgs m = Some msg -> (i < length (m_rcpts msg))%nat ->
  ~ TransCause sc cfg m ->
  ((forall j, own msg i j -> rcpt_err sc (Rcpt m (N.of_nat j))) \/ rcpt_err sc (Mail m) \/ rcpt_err sc (Data m)) ->
  smtp_final sc cfg msgs m i <> FQueued ->
  smtp_final sc cfg msgs m i = FPermanent.
Proof.
  intros sc cfg msgs m msg i Hm Hi Hn Hrej Hq.
  destruct (smtp_rejected_class sc cfg msgs m msg i Hm Hi Hrej Hq) as [[H _]|[_ H]]; [exact H | now elim Hn].
Qed.
Print Assumptions C11_classification_smtp_5xx.

Theorem C11_classification_smtp_4xx : forall sc cfg msgs m msg i,
  msg_at msgs m = Some msg -> (i < length (m_rcpts msg))%nat ->
  ~ PermCause sc cfg msgs m ->
  ((forall j, own msg i j -> rcpt_err sc (Rcpt m (N.of_nat j))) \/ rcpt_err sc (Mail m) \/ rcpt_err sc (Data m)) ->
  smtp_final sc cfg msgs m i <> FQueued ->
  smtp_final sc cfg msgs m i = FTransient.
Proof.
  intros sc cfg msgs m msg i Hm Hi Hn Hrej Hq.
  destruct (smtp_rejected_class sc cfg msgs m msg i Hm Hi Hrej Hq) as [[_ H]|[H _]]; [now elim Hn | exact H].
Qed.
Print Assumptions C11_classification_smtp_4xx.

Theorem C11_rejected_not_delivered : forall sc cfg msgs m msg i,
  msg_at msgs m = Some msg ->
  ((forall j, own msg i j -> rcpt_err sc (Rcpt m (N.of_nat j))) \/ rcpt_err sc (Mail m) \/ rcpt_err sc (Data m)) ->
  smtp_final sc cfg msgs m i <> FDelivered.
Proof. exact smtp_rejected_not_delivered. Qed.
Print Assumptions C11_rejected_not_delivered.

(* the attempt ends, for every recipient of every request, in a result or a relay error (or the
   request is back on the pool queue): never a foreign exception, never a hang, never a missing
   table entry - for every script (bad reply codes included) and every envelope (addresses that
   cannot be encoded included) *)
Theorem C11_total_smtp : forall sc cfg msgs m msg i,
  msg_at msgs m = Some msg -> (i < length (m_rcpts msg))%nat ->
  let f := smtp_final sc cfg msgs m i in
  f = FDelivered \/ f = FPermanent \/ f = FTransient \/ f = FQueued.
Proof. exact smtp_total. Qed.
Print Assumptions C11_total_smtp.

(* a foreign exception is only possible for an envelope without recipients (rcpttos[0]) *)
Theorem C11_total_smtp_other_cause : forall sc cfg msgs m i,
  smtp_final sc cfg msgs m i = FOther -> ForeignCause msgs m.
Proof. intros sc cfg msgs m i H. generalize (smtp_final_inv sc cfg msgs m i). now rewrite H. Qed.
Print Assumptions C11_total_smtp_other_cause.

(* a broken connection is a transient failure of the request being worked on, whatever error
   replies (500 to EHLO, 5xx for another recipient, a rejected earlier request) were seen before:
   if the connection run ends with BadReply/ConnectionLost, a timeout or a socket error while the
   current request has no result yet, every recipient of that request is reported transient *)
Theorem C11_hangup_transient : forall sc cfg msgs e s i,
  msgs <> [] ->
  (r_connect cfg ;;; r_handshake sc cfg ;;; run_loop sc cfg msgs 0) st0 = (inr e, s) ->
  (e = ASmtp \/ e = ATimeout \/ e = ASock) ->
  lookup_res (results s) (cur s) = None ->
  smtp_final sc cfg msgs (cur s) i = FTransient.
Proof.
  intros sc cfg msgs e s i Hne Hrun He Hunset. unfold smtp_final.
  rewrite (run_client_results sc cfg msgs _ _ Hne Hrun), (run_arms_broken e s He Hunset). cbn.
  now rewrite N.eqb_refl.
Qed.
Print Assumptions C11_hangup_transient.

(* RelayPool.attempt over successive connections returns the result of one of them *)
Theorem C11_attempt_conns : forall cfg scs msg r,
  attempt_conns cfg scs msg = Some r ->
  exists sc, In sc scs /\ lookup_res (results (run_client sc cfg [msg])) 0 = Some r.
Proof. exact attempt_conns_sound. Qed.
Print Assumptions C11_attempt_conns.

Theorem C11_success_sound_pipe : forall k per ps i,
  pipe_final (pipe_attempt k per ps) i = FDelivered ->
  exists so se, nth_error ps (if per then i else 0%nat) = Some (Exited 0 so se).
Proof.
  intros k per ps i. rewrite pipe_final_eq.
  destruct (nth_error (pipe_all k ps) _) as [r|] eqn:E; [|destruct per; discriminate].
  intros H. apply of_rres_delivered in H as ->. exact (pipe_all_sound k ps _ E).
Qed.
Print Assumptions C11_success_sound_pipe.

Theorem C11_classification_pipe : forall k (per : bool) ps (i : nat),
  let j := if per then i else 0%nat in
  (forall st so se, (forall j', (j' < j)%nat -> nth_error ps j' <> Some TimedOut) ->
     nth_error ps j = Some (Exited st so se) -> st <> 0 ->
     pipe_final (pipe_attempt k per ps) i = of_cls (raise_error k st so se)) /\
  (forall j', (j' <= j)%nat -> nth_error ps j' = Some TimedOut -> (i < length ps)%nat \/ per = false ->
     pipe_final (pipe_attempt k per ps) i = FTransient).
Proof.
  intros k per ps i. cbv zeta. split; [|apply pipe_final_timeout].
  intros st so se Hno Hj Hst. now rewrite pipe_final_eq, (pipe_all_exit k ps _ st so se Hno Hj), exec_process_nz.
Qed.
Print Assumptions C11_classification_pipe.

Theorem C11_classification_pipe_tempfail : forall k st so se,
  k <> KPipe -> raise_error k st so se = if st =? 75 then Trans else Perm.
Proof. intros k st so se H. destruct k; [congruence | reflexivity..]. Qed.
Print Assumptions C11_classification_pipe_tempfail.

Theorem C11_total_pipe : forall k per ps i,
  (i < length ps)%nat -> good_final (pipe_final (pipe_attempt k per ps) i).
Proof.
  intros k per ps i Hi. rewrite pipe_final_eq.
  destruct (nth_error (pipe_all k ps) _) as [r|] eqn:E; [apply of_rres_good|].
  destruct per; [|right; right; reflexivity]. now apply (pipe_all_some k) in Hi.
Qed.
Print Assumptions C11_total_pipe.

Theorem C11_success_sound_http : forall d,
  http_final (http_attempt d) = FDelivered ->
  exists status h, d = HResp status h /\ 200 <= status < 300.
Proof.
  intros [| | |status h]; try discriminate. intros H. exists status, h. split; [reflexivity|].
  assert (D : 200 <= status < 300 \/ ~ (200 <= status < 300)) by lia.
  destruct D as [D|D]; [exact D|]. destruct (http_exc status h D) as [c Hc].
  rewrite Hc in H. now apply of_cls_not_delivered in H.
Qed.
Print Assumptions C11_success_sound_http.

Theorem C11_classification_http :
  http_final (http_attempt HRefused) = FTransient /\
  http_final (http_attempt HSilent) = FTransient /\
  http_final (http_attempt HBroken) = FTransient /\
  (forall status h, ~ (200 <= status < 300) -> http_final (http_attempt (HResp status h)) <> FDelivered) /\
  (forall status code cmd e, ~ (200 <= status < 300) -> 500 <= code <= 599 ->
     http_final (http_attempt (HResp status (HCode code cmd e))) = FPermanent) /\
  (forall status code cmd e, ~ (200 <= status < 300) -> 400 <= code <= 499 ->
     http_final (http_attempt (HResp status (HCode code cmd e))) = FTransient).
Proof.
  repeat split.
  - intros status h Hs H. apply C11_success_sound_http in H as (? & ? & [= <- <-] & H). exact (Hs H).
  - intros. now rewrite http_not_2xx, header_class_5xx.
  - intros. now rewrite http_not_2xx, header_class_4xx.
Qed.
Print Assumptions C11_classification_http.

Theorem C11_total_http : forall d, good_final (http_final (http_attempt d)).
Proof. intros d. destruct (http_attempt d) as [|c]; [left; reflexivity | apply of_cls_good]. Qed.
Print Assumptions C11_total_http.

Theorem C11_classification_mx : forall rcpt0 forced mx a attempts,
  (~ In 64 rcpt0 -> mx_attempt rcpt0 forced mx a attempts = MxPerm) /\
  (In 64 rcpt0 -> forced = false -> mx = DnsFail -> mx_attempt rcpt0 forced mx a attempts = MxTrans) /\
  (In 64 rcpt0 -> forced = false -> mx = DnsNotFound -> a = DnsFail ->
     mx_attempt rcpt0 forced mx a attempts = MxTrans) /\
  (In 64 rcpt0 -> forced = false -> mx = DnsNotFound -> a = DnsNotFound ->
     mx_attempt rcpt0 forced mx a attempts = MxPerm) /\
  (In 64 rcpt0 -> forced = false -> mx = DnsOk [] -> mx_attempt rcpt0 forced mx a attempts = MxPerm).
Proof.
  intros. repeat split; [apply mx_attempt_no_at|..]; intros H; intros; subst; now rewrite mx_attempt_at.
Qed.
Print Assumptions C11_classification_mx.

Theorem C11_mx_destination : forall rcpt0 mx a attempts d,
  mx_attempt rcpt0 false mx a attempts = MxRelay d ->
  (exists l, mx = DnsOk l /\ l <> [] /\
     nth_error (map (fun r => DHost (snd r)) (mx_sort l))
               (N.to_nat (attempts mod N.of_nat (length l))) = Some d /\
     sorted_prio (mx_sort l) /\ (forall x, In x (mx_sort l) <-> In x l)) \/
  (mx = DnsNotFound /\ exists l, a = DnsOk l /\ l <> [] /\ d = DDomain).
Proof. exact mx_destination. Qed.
Print Assumptions C11_mx_destination.

(* SmtpRelayError.factory is handed the whole reply (code + text, whose enhanced status code may
   contradict the code: "550 4.2.1 ...", "451 5.7.1 ..."); the class depends on the code only *)
Theorem C11_classification_by_code_only : forall c e e',
  factory_reply c e = factory_reply c e' /\
  (factory_reply c e = Perm <-> (c = C5 \/ c = C500)) /\
  (factory_reply c e = Trans <-> (c = C2 \/ c = C3 \/ c = C4)).
Proof.
  intros c e e'. split; [reflexivity|]. unfold factory_reply.
  destruct c; cbn; split; split; intros H; try discriminate; auto;
    repeat (destruct H as [H|H]; try discriminate).
Qed.
Print Assumptions C11_classification_by_code_only.

Theorem C11_failed_class_by_code : forall sc cfg msgs m l i c,
  lookup_res (results (run_client sc cfg msgs)) m = Some (MMap l) -> nth_error l i = Some (TFailed c) ->
  exists msg j stg cl, msg_at msgs m = Some msg /\ own msg i j /\
    (stg = Rcpt m (N.of_nat j) \/ stg = Eod m (N.of_nat j)) /\
    read_reply (reply sc stg) = inl cl /\ is_error cl = true /\
    (c = Perm <-> (cl = C5 \/ cl = C500)).
Proof.
  intros sc cfg msgs m l i c Hl Hn.
  destruct (C11_failed_own_class _ _ _ _ _ _ _ Hl Hn) as (msg & j & Hm & Hj & stg & cl & Hs & Hr & He & <-).
  exists msg, j, stg, cl. repeat split; auto; apply (C11_classification_by_code_only cl ENone ENone).
Qed.
Print Assumptions C11_failed_class_by_code.

(* after any history of attempts on one relay: the resolver is asked exactly when no fresh record is
   cached; a resolver error is transient and leaves the record as it was, so the next attempt asks
   again; a transient result only comes from an error of this very attempt and a permanent one only
   from this attempt's own "nothing there" answer - an error never turns into a permanent failure;
   a fresh cached record (successful lookup within its TTL) is used as it is *)
Theorem C11_mx_error_not_cached : forall steps st d,
  s_domain st = Some d ->
  let cache := mx_cache_after steps in
  let r := match dget cache d with Some r => r | None => mxrec0 end in
  let '(o, asked, cache') := mx_attempt_st cache st in
  asked = mx_expired r (s_now st) /\
  (asked = true -> mx_resolve st = inr tt ->
     o = MxTrans /\ dget cache' d = Some r /\ forall now', s_now st <= now' -> mx_expired r now' = true) /\
  (o = MxTrans -> asked = true /\ mx_resolve st = inr tt) /\
  (o = MxPerm -> asked = true /\ exists e, mx_resolve st = inl (None, e) \/ mx_resolve st = inl (Some [], e)) /\
  (asked = false -> o = mx_finish r (s_attempts st) /\ exists dst, o = MxRelay dst).
Proof. exact mx_error_not_cached. Qed.
Print Assumptions C11_mx_error_not_cached.

(* every well-formed reply code n is read as the outcome of its class (500 kept apart only because
   EHLO compares it literally); all theorems above quantify over every script stage -> outcome, hence
   over every assignment of codes: an error reply is permanent iff its code is 5xx *)
Theorem C11_classification_by_class_of_code : forall n c,
  read_reply (outcome_of_code n) = inl c ->
  (is_error c = true <-> 400 <= n <= 599) /\
  (factory c = Perm <-> 500 <= n <= 599) /\
  (is_error c = true -> factory c = Trans <-> 400 <= n <= 499).
Proof.
  intros n c H. apply outcome_of_code_class in H.
  destruct c; cbn; repeat split; intros; try discriminate; try reflexivity; lia.
Qed.
Print Assumptions C11_classification_by_class_of_code.

(* PipeRelay: a permanent failure only if the program output (stdout, else stderr, right-stripped)
   BEGINS with "5." digit ...; what later lines look like never matters *)
Theorem C11_pipe_permanent_begins_with_5 : forall st so se,
  raise_error KPipe st so se = Perm ->
  let so' := rstrip_b so in let se' := rstrip_b se in
  let msg := match so' with [] => (match se' with [] => default_msg | _ => se' end) | _ => so' end in
  exists d rest, u8r msg = 53 :: 46 :: d :: rest /\ udigit d = true.
Proof.
  intros st so se H. cbv zeta. apply perm_pattern_prefix. cbn [raise_error] in H.
  now destruct (perm_pattern _).
Qed.
Print Assumptions C11_pipe_permanent_begins_with_5.
