(* C06 -- a relay hop preserves sender, recipients and content end to end.

   Each theorem is an instance, or a derivation in a few lines, of a lemma of
   proof/Hop_lemmas.v; the model is model/Hop.v (find_outside_quotes after the
   repair of defect D16, see /verif/fixes/d16-quoted-pair-in-address.diff).

   Vocabulary
     exts                         Extensions.extensions: ordered (NAME, parameter) pairs
     build_mail e a size auth     the bytes Client.mailfrom(a, size, auth) hands to send_command when
                                  the server advertised e (None = UnicodeEncodeError);  build_rcpt e a
     server_line stream           IO.recv_command on the stream, then the address part of
                                  Server._command_MAIL / _command_RCPT:  LMail (AOk address params) rest
     wf_mailbox u a / wf_sender   RFC 5321 Mailbox (dot-string or quoted-string local part, domain or
                                  address literal); u = UTF8-non-ascii allowed (SMTPUTF8 advertised);
                                  wf_sender also accepts the null sender (empty text)
     mail_params e size auth      [(SIZE, decimal n)] if size given and SIZE advertised, then
                                  [(AUTH, <> | xtext)] if auth given and AUTH advertised
     build_string / parse_string  Extensions.build_string / parse_string
     b64enc / b64dec              base64.b64encode / binascii.a2b_base64
     build_headers, http_addresses  HttpRelayClient._build_headers; WsgiEdge._get_sender/_get_recipients
                                  on the environ a WSGI server makes of those headers, repeated
                                  headers merged with `sep`
     smtp_hop / http_hop          the composition: relay client -> wire -> edge -> Envelope handed to the queue
   Imported theorems: DATA framing is C05 (Data_lemmas.roundtrip), envelope parse/flatten is C20
   (Envelope_lemmas.parse_wf, with C20's hypothesis codec_ok about Python's email package), the reply
   wire is C17 (Reply_lemmas.send_recv_inc / reply_roundtrip). *)
From Coq Require Import List NArith Bool.
From SV Require Import lib.Bytes gen.UnicodeTables model.Hop proof.Hop_lemmas.
From SV Require model.Reply model.Data model.Envelope.
From SV Require proof.Reply_lemmas proof.Unicode_lemmas proof.Envelope_lemmas.
Import ListNotations.
Open Scope N_scope.

(* MAIL FROM: for every valid reverse-path and every combination of advertised extensions and of the
   optional SIZE / AUTH arguments, the line the client writes (followed by anything) is read by the
   server as the MAIL command with exactly that address and exactly those parameters, nothing else
   consumed. *)
Theorem C06_mail_roundtrip : forall (e : exts) (a : text) (size : option N) (auth : option (option text)),
  wf_sender (ext_mem X_SMTPUTF8 e) a = true -> auth_ok e auth ->
  exists line, build_mail e a size auth = Some line /\
    forall t, server_line (send_command line ++ t) = LMail (AOk a (mail_params e size auth)) t.
Proof. exact mail_roundtrip. Qed.
Print Assumptions C06_mail_roundtrip.

Theorem C06_rcpt_roundtrip : forall (e : exts) (a : text),
  wf_mailbox (ext_mem X_SMTPUTF8 e) a = true ->
  exists line, build_rcpt e a = Some line /\
    forall t, server_line (send_command line ++ t) = LRcpt (AOk a []) t.
Proof. exact rcpt_roundtrip. Qed.
Print Assumptions C06_rcpt_roundtrip.

(* the SIZE value is the decimal numeral of the number given *)
Theorem C06_size_decimal : forall n, dec_val (dec_of_N n) = n.
Proof. exact dec_val_of_N. Qed.
Print Assumptions C06_size_decimal.

(* D16: with the scanner as it was (no quoted-pair handling) the valid mailbox d16_witness
   ( DQUOTE a BACKSLASH DQUOTE b > c DQUOTE @ x ) written by the client is read by the server as
   DQUOTE a BACKSLASH DQUOTE b  with two junk parameters (C, X); the repaired scanner returns it whole *)
Theorem C06_quoted_pair_needs_escape :
  wf_mailbox false d16_witness = true /\
  build_mail [] d16_witness None None = Some (C_MAIL ++ 32 :: d16_arg) /\
  parse_mail_d16 d16_arg = AOk [34; 97; 92; 34; 98] [([67], PTrue); ([88], PTrue)] /\
  parse_mail d16_arg = AOk d16_witness [].
Proof. repeat split; vm_compute; reflexivity. Qed.
Print Assumptions C06_quoted_pair_needs_escape.

(* EHLO text: names [A-Z0-9][A-Z0-9-]*, pairwise different; parameters absent or non-empty, without
   line feed, not beginning or ending with white space; first line not empty, without line feed *)
Theorem C06_ext_roundtrip : forall (h : text) (e : exts),
  header_ok h -> wf_exts e -> parse_string [] (build_string h e) = (h, e).
Proof. exact ext_roundtrip. Qed.
Print Assumptions C06_ext_roundtrip.

(* ... and over the wire: the 250 reply to EHLO written by IO.send_reply, followed by anything, in any
   segmentation: the client ends up with exactly the advertised extensions *)
Theorem C06_ext_over_the_wire : forall greeting adv t buf chunks,
  header_ok greeting -> Reply_lemmas.valid_text greeting -> wf_exts adv -> exts_text_ok adv ->
  Reply_lemmas.nonempty_chunks chunks ->
  buf ++ concat chunks = ehlo_reply_wire greeting adv ++ t ->
  client_exts false greeting adv buf chunks = Some adv.
Proof. exact client_exts_ok. Qed.
Print Assumptions C06_ext_over_the_wire.

Theorem C06_base64_roundtrip : forall s, Forall (fun b => b < 256) s -> b64dec (b64enc s) = B64Ok s.
Proof. exact b64_roundtrip. Qed.
Print Assumptions C06_base64_roundtrip.

(* HTTP: sender and 1..n recipients (any valid Unicode text, recipients not empty) through one
   base64 header each, merged by the WSGI server with ANY separator the edge's split pattern
   matches (white space, "," or ";", white space), split and decoded: same sender, same recipients, same order *)
Theorem C06_http_envelope_roundtrip : forall sep ehlo sender rcpts h b,
  sep_ok sep -> forallb Reply.valid_cp sender = true -> rcpts <> [] -> Forall rcpt_text rcpts ->
  exists hs, build_headers ehlo sender rcpts h b = Some hs /\
             http_addresses sep hs = (DOk sender, RcOk rcpts).
Proof. exact http_envelope_roundtrip. Qed.
Print Assumptions C06_http_envelope_roundtrip.

(* THE HOP, SMTP/LMTP.  For every envelope (header block fs of C20's class, blank line, ANY body B),
   every set ce of extensions the client works with (after EHLO what was advertised -- previous theorem --,
   after the HELO fallback none), every valid sender and recipient list, every segmentation of the DATA
   stream: unless 8BITMIME is missing and the body is 8-bit (then the relay refuses, C20_7bit_refuses),
   the envelope handed to the edge's queue has the same sender, the same recipients in the same order,
   the same header block and the body of C05: B, followed by CRLF iff the message did not end with CRLF. *)
Theorem C06_hop :
  forall (hdr : Type) (hparse : bytes -> hdr * option bytes) (hgen : hdr -> bytes),
  Envelope.codec_ok hparse hgen ->
  forall ce fs blank B sender rcpts t buf chunks,
  Envelope.wf_block fs = true -> Envelope.blank_ok blank ->
  wf_sender (ext_mem X_SMTPUTF8 ce) sender = true ->
  Forall (fun r => wf_mailbox (ext_mem X_SMTPUTF8 ce) r = true) rcpts ->
  (ext_mem X_8BITMIME ce = false -> Envelope.has_8bit B = false) ->
  let e := Envelope.parse hdr hparse sender rcpts (Envelope.render fs ++ blank ++ B) in
  Forall (fun c => c <> []) chunks ->
  buf ++ concat chunks = data_wire hdr hgen e ++ t ->
  Envelope.flatten hdr hgen e = (Envelope.gen_fields fs, B) /\
  exists e', smtp_hop hdr hparse ce e buf chunks = Delivered e' /\
    Envelope.e_sender e' = sender /\ Envelope.e_rcpts e' = rcpts /\
    Envelope.flatten hdr hgen e' = (Envelope.gen_fields fs, body_received fs B) /\
    Envelope.join (Envelope.flatten hdr hgen e') = Data.expected (Envelope.join (Envelope.flatten hdr hgen e)).
Proof.
  intros hdr hparse hgen Hc ce fs blank B sender rcpts t buf chunks Hwf Hbl Hs Hr H8 e Hch Hw.
  destruct (Envelope_lemmas.parse_wf hdr hparse hgen Hc fs blank B sender rcpts Hwf Hbl) as (P1 & P2 & P3 & P4).
  pose proof (f_equal2 pair P3 P4 : Envelope.flatten hdr hgen e = _) as Hf. split; [exact Hf|].
  exact (smtp_hop_delivers hdr hparse hgen Hc ce e fs B sender rcpts t buf chunks Hwf P1 P2 Hf Hs Hr H8 Hch Hw).
Qed.
Print Assumptions C06_hop.

(* THE HOP, HTTP: flatten() of the received envelope is exactly flatten() of the sent one *)
Theorem C06_hop_http :
  forall (hdr : Type) (hparse : bytes -> hdr * option bytes) (hgen : hdr -> bytes),
  Envelope.codec_ok hparse hgen ->
  forall sep ehlo fs blank B sender rcpts,
  Envelope.wf_block fs = true -> Envelope.blank_ok blank -> sep_ok sep ->
  forallb Reply.valid_cp sender = true -> rcpts <> [] -> Forall rcpt_text rcpts ->
  let e := Envelope.parse hdr hparse sender rcpts (Envelope.render fs ++ blank ++ B) in
  exists e', http_hop hdr hparse hgen sep ehlo e = Delivered e' /\
    Envelope.e_sender e' = sender /\ Envelope.e_rcpts e' = rcpts /\
    Envelope.flatten hdr hgen e' = Envelope.flatten hdr hgen e.
Proof.
  intros hdr hparse hgen Hc sep ehlo fs blank B sender rcpts Hwf Hbl Hsep Hs Hne Hr e.
  destruct (Envelope_lemmas.parse_wf hdr hparse hgen Hc fs blank B sender rcpts Hwf Hbl) as (P1 & P2 & P3 & P4).
  exact (http_hop_delivers hdr hparse hgen Hc sep ehlo e fs B sender rcpts Hwf P1 P2 (f_equal2 pair P3 P4) Hsep Hs Hne Hr).
Qed.
Print Assumptions C06_hop_http.

(* the reply code the edge gave is what the relay reports.
   SMTP: the edge's final Reply(code, text) crosses the wire unchanged (C17) *)
Theorem C06_code_reported : forall code v t buf chunks,
  Reply_lemmas.code_2xx_5xx code -> Reply_lemmas.valid_text v -> Reply_lemmas.ns_head uspace v = true ->
  Reply_lemmas.nonempty_chunks chunks ->
  buf ++ concat chunks = Reply.wire_of (Reply.new_reply udigit uspace code v) ++ t ->
  exists r' buf' chunks',
    Reply.reply_recv udigit uspace buf chunks = Reply.GotReply r' buf' chunks' /\ Reply.r_code r' = code.
Proof.
  intros code v t buf chunks H1 H2 H3 H4 H5.
  destruct (Reply_lemmas.reply_roundtrip udigit uspace Unicode_lemmas.udigit_46 Unicode_lemmas.udigit_48
              Unicode_lemmas.uspace_32 Unicode_lemmas.uspace_10 Unicode_lemmas.uspace_13
              Unicode_lemmas.digit_space_disjoint code v t buf chunks H1 H2 H3 H4 H5)
    as [r' [b' [c' [E [Hc _]]]]].
  exists r', b', c'. split; assumption.
Qed.
Print Assumptions C06_code_reported.

(* HTTP: the X-Smtp-Reply header the WSGI edge builds for Reply(code, msg) -- any three-digit code
   1xx..5xx, any message -- is parsed by the relay to the same code, and with the HTTP status the edge
   chooses attempt() reports success for 2xx, a permanent error for 5xx, a transient one otherwise,
   carrying that code *)
Theorem C06_code_reported_http : forall code msg, code3 code ->
  parse_reply_header (build_reply_header code msg) = RHCode code /\
  process_response (http_status code) (build_reply_header code msg) = report_of code.
Proof. intros code msg H. split; [apply reply_header_code, H|apply http_code_reported, H]. Qed.
Print Assumptions C06_code_reported_http.

(* ... for ALL codes 100..599 and all message texts: whatever HTTP status the edge picks for the code (204 for
   2xx, 503 for 4xx, 401 for 535, 500 for everything else), the code attempt() reports or raises is the edge's
   own code, and it is a success exactly for 2xx *)
Theorem C06_edge_code_reported_http : forall code msg, code3 code ->
  report_code (process_response (http_status code) (build_reply_header code msg)) = Some code /\
  report_is_success (process_response (http_status code) (build_reply_header code msg)) = starts_with [50] code.
Proof.
  intros code msg H. rewrite (http_code_reported code msg H). unfold report_of.
  destruct (starts_with [50] code); [split; reflexivity|]. destruct (starts_with [53] code); split; reflexivity.
Qed.
Print Assumptions C06_edge_code_reported_http.
