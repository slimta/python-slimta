(* C02 - an edge acknowledges a message only after custody of every recipient is
   taken.  Each theorem follows in a few lines from the general lemmas of
   proof/Edge_lemmas.v; definitions in model/Edge.v (which mirrors the code with
   the fixes d3-edge-all-results and d4-proxyqueue-per-recipient applied).

   Vocabulary:  bs : list wbeh   one behaviour per envelope the policy chain produced
                                 (Done d o: the write yields d times, then o; Hang: never completes)
                smtp_run / wsgi_run relay bs   = (trace, answer) of the edge on top of Queue.enqueue
                all_stored_before bs tr0       = bs is not empty, every write of bs returned an id
                                                 and its EvWriteDone is in tr0, no EvWriteFail and
                                                 no reply event is in tr0.                       *)
From Coq Require Import List NArith Bool.
From SV Require Import model.Edge proof.Edge_lemmas.
Import ListNotations.
Open Scope N_scope.

(* SMTP edge + Queue, for every number of envelopes, every failure position and
   kind and every delay: a 2xx code is the LAST event of the trace and
   everything before it contains the completion of every write. *)
Theorem C02_smtp_2xx_implies_all_stored : forall relay bs tr c,
  smtp_run relay bs = (tr, Replied c) -> class2 c = true ->
  exists tr0, tr = tr0 ++ [EvSmtpReply c] /\ all_stored_before bs tr0.
Proof.
  intros relay bs tr c H C2. destruct (smtp_2xx _ _ _ H C2) as (rs & Q & -> & Hne & Hall).
  eexists. split; [reflexivity|exact (queue_ack _ _ _ Q Hne Hall)].
Qed.
Print Assumptions C02_smtp_2xx_implies_all_stored.

Theorem C02_wsgi_2xx_implies_all_stored : forall relay bs tr s,
  wsgi_run relay bs = (tr, Replied s) -> s / 100 = 2 ->
  exists tr0, tr = tr0 ++ [EvHttpStatus s] /\ all_stored_before bs tr0.
Proof.
  intros relay bs tr s H C2. destruct (wsgi_2xx _ _ _ H C2) as (rs & Q & -> & Hne & Hall).
  eexists. split; [reflexivity|exact (queue_ack _ _ _ Q Hne Hall)].
Qed.
Print Assumptions C02_wsgi_2xx_implies_all_stored.

(* The same on the level of what ANY queue-like object returns (result lists of
   any length, QueueError with any attached reply, RelayError): both edges. *)
Theorem C02_results_2xx_implies_all_ids : forall rs,
  class2 (smtp_reply_of rs) = true \/ wsgi_status_of rs / 100 = 2 ->
  rs <> [] /\ forall e w, In (e, w) rs -> exists i, w = Id i.
Proof. intros rs [H|H]; [exact (smtp_2xx_results rs H)|exact (wsgi_2xx_results rs H)]. Qed.
Print Assumptions C02_results_2xx_implies_all_ids.

(* While a write has not completed nothing at all has been answered. *)
Theorem C02_blocked_write_no_reply : forall relay bs, In Hang bs ->
  snd (smtp_run relay bs) = NoReply /\ snd (wsgi_run relay bs) = NoReply /\
  (forall e, In e (fst (smtp_run relay bs)) -> is_reply_event e = false) /\
  (forall e, In e (fst (wsgi_run relay bs)) -> is_reply_event e = false).
Proof.
  intros relay bs H. unfold smtp_run, wsgi_run, handoff.
  destruct (edge_blocked _ (queue_blocked relay bs H)) as [-> ->].
  repeat split; apply queue_trace_reply_free.
Qed.
Print Assumptions C02_blocked_write_no_reply.

(* Any failed write - QueueError with or without a reply of any code, an
   Exception subclass (OSError, backend client error), gevent.Timeout or any
   other BaseException-only class (GreenletExit of a killed write) - at any
   position, once all writes have completed: the client is never acknowledged.
   It gets 4xx/5xx on both edges, or - only when a write ended in a
   BaseException-only class - no answer at all because the exception leaves the
   edge (SMTP: session over, socket closed without a reply; WSGI: the
   application raises and the WSGI server answers 500).  (That no exception of
   any family is taken for a queue id is part of the 2xx theorems above: 2xx
   implies every write is `Done d WId`.) *)
Theorem C02_error_gives_4xx5xx : forall relay bs,
  ~ In Hang bs -> (exists b, In b bs /\ failed_write b = true) ->
  refused smtp_err (snd (smtp_run relay bs)) /\
  refused http_err (snd (wsgi_run relay bs)) /\
  (snd (smtp_run relay bs) = Dropped \/ snd (wsgi_run relay bs) = Dropped ->
   exists b, In b bs /\ base_only b = true).
Proof.
  intros relay bs NH F. pose proof (queue_failed relay bs NH F) as Q.
  destruct (edge_refused (queue_enqueue relay bs)) as (E1 & E2 & D);
    [destruct (q_res _); auto|].
  repeat split; [exact E1|exact E2|]. intros X.
  destruct (D X) as [R|R]; rewrite R in Q; destruct Q as [d Hd]; eauto.
Qed.
Print Assumptions C02_error_gives_4xx5xx.

Theorem C02_error_results_give_4xx5xx : forall rs,
  rs = [] \/ (exists e w, In (e, w) rs /\ is_failure w = true) ->
  is_error (smtp_reply_of rs) = true /\
  (wsgi_status_of rs / 100 = 4 \/ wsgi_status_of rs / 100 = 5).
Proof. exact error_results. Qed.
Print Assumptions C02_error_results_give_4xx5xx.

(* ProxyQueue: 2xx only if the relay call returned (before the reply) and no
   recipient of a per-recipient result failed ... *)
Theorem C02_proxy_2xx_implies_all_relayed : forall rr,
  (forall tr c, smtp_proxy_run rr = (tr, Replied c) -> class2 c = true ->
     relayed_ok rr /\ tr = [EvRelayStart; EvRelayDone; EvSmtpReply c]) /\
  (forall tr s, wsgi_proxy_run rr = (tr, Replied s) -> s / 100 = 2 ->
     relayed_ok rr /\ tr = [EvRelayStart; EvRelayDone; EvHttpStatus s]).
Proof.
  intros rr. split; intros tr x H C2.
  - destruct (smtp_2xx _ _ _ H C2) as (rs & Q & -> & _ & A).
    destruct (proxy_ok_core _ _ Q A) as [Hok E]. unfold handoff. rewrite E. auto.
  - destruct (wsgi_2xx _ _ _ H C2) as (rs & Q & -> & _ & A).
    destruct (proxy_ok_core _ _ Q A) as [Hok E]. unfold handoff. rewrite E. auto.
Qed.
Print Assumptions C02_proxy_2xx_implies_all_relayed.

(* ... and every relay failure - raised, or a single recipient inside a mapping
   or sequence result - is answered 4xx/5xx. *)
Theorem C02_proxy_failure_gives_4xx5xx : forall rr, relay_failed rr ->
  (exists tr c, smtp_proxy_run rr = (tr, Replied c) /\ is_error c = true) /\
  (exists tr s, wsgi_proxy_run rr = (tr, Replied s) /\ (s / 100 = 4 \/ s / 100 = 5)).
Proof. intros rr H. apply edge_error_replied, proxy_failed, H. Qed.
Print Assumptions C02_proxy_failure_gives_4xx5xx.

(* Delivery attempts are started only for envelopes that are in storage. *)
Theorem C02_attempts_only_for_stored : forall relay bs k,
  In k (q_attempts (queue_enqueue relay bs)) ->
  exists d, nth_error bs (N.to_nat k) = Some (Done d WId).
Proof. exact attempts_only_for_stored. Qed.
Print Assumptions C02_attempts_only_for_stored.

(* Several messages in flight on one Queue (any mix of SMTP and WSGI
   clients, any schedule of their steps, policies that yield): when message i is
   answered 2xx, every envelope of message i itself has been written, earlier in
   the global trace; the answer is the one of i's own sequential run. *)
Theorem C02_concurrent_smtp_2xx_implies_own_stored : forall relay msgs sched g1 g2 i c,
  concurrent_run relay msgs sched = g1 ++ (i, EvSmtpReply c) :: g2 ->
  exists m, nth_error msgs (N.to_nat i) = Some m /\ m_edge m = ESmtp /\
    snd (smtp_run relay (m_bs m)) = Replied c /\
    (class2 c = true ->
       m_bs m <> [] /\
       forall k b, nth_error (m_bs m) k = Some b ->
         exists d, b = Done d WId /\ In (i, EvWriteDone (N.of_nat k)) g1).
Proof.
  intros relay msgs sched g1 g2 i c H.
  destruct (concurrent_answer _ _ _ _ _ _ _ H eq_refl) as (m & Hm & Ha & Hp).
  destruct (msg_answer_inv _ _ _ Ha) as [Hk Hr].
  exists m. split; [exact Hm|]. split; [exact Hk|]. split; [exact Hr|]. intros C2.
  destruct (smtp_run relay (m_bs m)) as [tr a] eqn:R. cbn in Hr. subst a.
  destruct (smtp_2xx _ _ _ R C2) as (rs & Q & _ & A). exact (own_stored _ _ _ _ _ Q A Hp).
Qed.
Print Assumptions C02_concurrent_smtp_2xx_implies_own_stored.

Theorem C02_concurrent_wsgi_2xx_implies_own_stored : forall relay msgs sched g1 g2 i s,
  concurrent_run relay msgs sched = g1 ++ (i, EvHttpStatus s) :: g2 ->
  exists m, nth_error msgs (N.to_nat i) = Some m /\ m_edge m = EWsgi /\
    snd (wsgi_run relay (m_bs m)) = Replied s /\
    (s / 100 = 2 ->
       m_bs m <> [] /\
       forall k b, nth_error (m_bs m) k = Some b ->
         exists d, b = Done d WId /\ In (i, EvWriteDone (N.of_nat k)) g1).
Proof.
  intros relay msgs sched g1 g2 i s H.
  destruct (concurrent_answer _ _ _ _ _ _ _ H eq_refl) as (m & Hm & Ha & Hp).
  destruct (msg_answer_inv _ _ _ Ha) as [Hk Hr].
  exists m. split; [exact Hm|]. split; [exact Hk|]. split; [exact Hr|]. intros C2.
  destruct (wsgi_run relay (m_bs m)) as [tr a] eqn:R. cbn in Hr. subst a.
  destruct (wsgi_2xx _ _ _ R C2) as (rs & Q & _ & A). exact (own_stored _ _ _ _ _ Q A Hp).
Qed.
Print Assumptions C02_concurrent_wsgi_2xx_implies_own_stored.

(* Non-interference the per-client correspondence relies on: the answer given to
   message i is a function of i's own policy yields / write behaviours only -
   the same in every company (msgs, msgs') and under every schedule - and what
   message i did in a concurrent run is a prefix of its own sequential run. *)
Theorem C02_ack_depends_on_own_envelopes : forall relay msgs msgs' sched sched' i m,
  nth_error msgs (N.to_nat i) = Some m -> nth_error msgs' (N.to_nat i) = Some m ->
  (forall c, In (i, EvSmtpReply c) (concurrent_run relay msgs sched) ->
             In (i, EvSmtpReply c) (concurrent_run relay msgs' sched') ->
             snd (smtp_run relay (m_bs m)) = Replied c) /\
  (forall c c', In (i, EvSmtpReply c) (concurrent_run relay msgs sched) ->
                In (i, EvSmtpReply c') (concurrent_run relay msgs' sched') -> c = c') /\
  (forall s s', In (i, EvHttpStatus s) (concurrent_run relay msgs sched) ->
                In (i, EvHttpStatus s') (concurrent_run relay msgs' sched') -> s = s').
Proof.
  intros relay msgs msgs' sched sched' i m Hm Hm'. split; [|split].
  - intros c H _. exact (proj2 (msg_answer_inv _ _ _ (answer_is_own _ _ _ _ _ _ Hm H eq_refl))).
  - intros c c' H H'. now injection (answers_agree _ _ _ _ _ _ _ _ _ Hm Hm' H H' eq_refl eq_refl).
  - intros s s' H H'. now injection (answers_agree _ _ _ _ _ _ _ _ _ Hm Hm' H H' eq_refl eq_refl).
Qed.
Print Assumptions C02_ack_depends_on_own_envelopes.

Theorem C02_concurrent_projection_is_own_run : forall relay msgs sched i m,
  nth_error msgs (N.to_nat i) = Some m ->
  exists rest, msg_trace relay m = project i (concurrent_run relay msgs sched) ++ rest.
Proof.
  intros relay msgs sched i m H.
  pose proof (project_run sched (map (msg_trace relay) msgs) i) as P.
  rewrite nth_error_map, H in P. exact P.
Qed.
Print Assumptions C02_concurrent_projection_is_own_run.

(* The SMTP session in front of the hand-off (server flags + SmtpSession
   envelope under any validator verdicts): for EVERY command script - refused
   MAIL / RCPT / DATA, transactions continued after a refusal, RSET, EHLO, several
   transactions - every envelope handed to the queue holds exactly the recipients
   the CLIENT saw accepted (250 to RCPT) since its transaction began, where
   "what the client saw" is computed from the commands and reply codes alone
   (view_step).  Together with the theorems above (2xx => every envelope made
   from the handed-off one is stored) and C16 (policies conserve recipients):
   2xx => every accepted recipient is in storage. *)
Theorem C02_handoff_envelope_has_accepted_recipients : forall cs accepted envelope,
  In (accepted, envelope) (handoffs (false, []) (srun s_init cs)) -> envelope = accepted.
Proof. intros cs. apply handoffs_exact. split; [reflexivity|discriminate]. Qed.
Print Assumptions C02_handoff_envelope_has_accepted_recipients.
