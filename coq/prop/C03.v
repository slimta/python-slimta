(* C03 - settled recipients are never attempted again; one attempt in flight per message. *)
From Coq Require Import List NArith.
From SV Require Import model.Queue proof.Queue_S proof.Queue_L proof.Queue_examples.
Import ListNotations.
Open Scope N_scope.

(* One attempt in flight: in EVERY reachable state (any schedule, no assumption) at most one
   delivery attempt (relay call, its retry bookkeeping, or a dispatched read) exists per id. *)
Theorem C03_single_flight : forall es i, (live_count i (run es init) <= 1)%nat.
Proof. intros es i. exact (Sinv_single _ i (reach_S es)). Qed.
Print Assumptions C03_single_flight.

Theorem C03_no_two_relay_calls : forall es i l1 l2 l3 s1 r1 n1 s2 r2 n2,
  s_tasks (run es init) = l1 ++ TAttempt i s1 r1 n1 :: l2 ++ TAttempt i s2 r2 n2 :: l3 -> False.
Proof. intros es i l1 l2 l3 s1 r1 n1 s2 r2 n2 E. exact (Sinv_distinct _ _ _ _ _ _ (reach_S es) E eq_refl eq_refl eq_refl). Qed.
Print Assumptions C03_no_two_relay_calls.

(* Settled recipients are not attempted again.  Attempts are started only by enqueue() and by
   the dispatched read of a stored message ... *)
Theorem C03_attempts_started_by : forall s e a, In a (g_atts (step s e)) ->
  In a (g_atts s) \/
  (exists i snd rcpts rest, e = EEnqDone i /\ take_task (is_enq i) (s_tasks s) = Some (TEnq i snd rcpts, rest) /\
      a = mkAtt i rcpts 0 (s_clock s) CEnqueue) \/
  (exists i c rest m, e = EGet i /\ take_task (is_dequeue i) (s_tasks s) = Some (TDequeue i c, rest) /\
      st_get (s_store s) i = Some m /\ a = mkAtt i (m_rcpts m) (m_attempts m) (s_clock s) c).
Proof. exact attempts_started_by. Qed.
Print Assumptions C03_attempts_started_by.

(* ... and under the relay contract and fair announcements, in both cases every recipient
   of the attempt is unsettled (neither delivered nor failed for good) at that moment, in
   every reachable state, after any number of partial-delivery rounds. *)
Theorem C03_no_resend_enqueue : forall es i snd rcpts rest, ok_run es init ->
  let s := run es init in
  take_task (is_enq i) (s_tasks s) = Some (TEnq i snd rcpts, rest) ->
  forall r, In r rcpts -> unsettled_in s i r.
Proof. intros es i snd rcpts rest Hok s. exact (Linv_enq_unsettled s i snd rcpts rest (reach_L es Hok)). Qed.
Print Assumptions C03_no_resend_enqueue.

Theorem C03_no_resend_dequeue : forall es i c rest m, ok_run es init ->
  let s := run es init in
  take_task (is_dequeue i) (s_tasks s) = Some (TDequeue i c, rest) -> st_get (s_store s) i = Some m ->
  forall r, In r (m_rcpts m) -> unsettled_in s i r.
Proof. intros es i c rest m Hok s. exact (Linv_dequeue_unsettled s i c rest m (reach_L es Hok)). Qed.
Print Assumptions C03_no_resend_dequeue.

(* the fairness hypothesis is needed: an announcement racing the lazy removal of a delivered
   message makes the queue attempt the delivered recipient again *)
Theorem C03_unfair_announcement_refuted :
  let s := run unfair_sched init in
  In (0, 1) (g_deliv s) /\ exists l1 l2, s_tasks s = l1 ++ TAttempt 0 true [1] 0 :: l2.
Proof. vm_compute. split; [left; reflexivity|]. exists [TRemove 0], []. reflexivity. Qed.
Print Assumptions C03_unfair_announcement_refuted.

(* Storage side: that k successive marking rounds leave exactly the unsettled recipients, order
   preserved, on every backend, is C03_rounds_dict / C03_rounds_accum in prop/C15.v. *)
