(* C18 - PROXY protocol headers are parsed exactly and never over-read.
   Each theorem follows in a few lines from the lemmas of proof/Proxy_lemmas.v
   about model/Proxy.v (slimta/util/proxyproto.py after the D19 repair).

   A socket is [mk_sock data sched]: the bytes the peer sends and a short-read
   schedule.  Every theorem quantifies over all schedules; the exactness
   theorems also over all payloads, the robustness theorems over all streams.
   IPv6 text conversion (libc inet_pton/inet_ntop) is the parameter
   [pton6]/[ntop6]; the exactness theorems assume [ip6_oracle] of it (printing
   gives <= 39 printable non-space ASCII characters that parse back), the
   robustness theorems assume nothing.  [C18_ip6_glibc] proves that assumption
   for the glibc algorithms written in model/Proxy.v - the functions the
   extracted model runs and the correspondence check compares with libc -
   and [C18_exact_model] is the instance for them. *)
From Coq Require Import List.
From SV Require Import lib.Bytes model.Proxy proof.Proxy_lemmas.
Import ListNotations.

(* Every well-formed v1 header (TCP4, TCP6, UNKNOWN with any ignored tail),
   any payload, any short-read schedule: process_pp_v1 returns the encoded
   source and destination, handle() passes the source on, and exactly the
   header has been consumed - the payload is what is left on the socket. *)
Theorem C18_v1_exact : forall pton6 ntop6, ip6_oracle pton6 ntop6 ->
  forall h payload sched, wf1 h = true ->
  exists s',
    process_pp_v1 pton6 ntop6 [] (mk_sock (enc_v1 ntop6 h ++ payload) sched) = (Ok (expect1 ntop6 h), s') /\
    handle_v1 pton6 ntop6 (mk_sock (enc_v1 ntop6 h ++ payload) sched) = (HAddr (fst (expect1 ntop6 h)), s') /\
    s_data s' = payload /\
    consumed (mk_sock (enc_v1 ntop6 h ++ payload) sched) s' = length (enc_v1 ntop6 h).
Proof.
  intros pton6 ntop6 H6 h payload sched Hwf.
  destruct (process_v1_exact pton6 ntop6 H6 h [] (enc_v1 ntop6 h) payload sched Hwf eq_refl (le_0_n 8)) as (sched' & Hq).
  exists (mk_sock payload sched'). split; [exact Hq|]. split; [|split; [reflexivity|apply consumed_app]].
  unfold handle_v1. rewrite Hq. destruct (expect1 ntop6 h). reflexivity.
Qed.
Print Assumptions C18_v1_exact.

(* The same for v2 (TCP/UDP over IPv4/IPv6, UNIX, UNSPEC, LOCAL, with any TLV
   bytes inside the declared length); a LOCAL header ends in LocalConnection,
   i.e. handle() returns without calling the wrapped handler. *)
Theorem C18_v2_exact : forall ntop6 h payload sched, wf2 h = true ->
  exists s',
    process_pp_v2 ntop6 [] (mk_sock (enc_v2 h ++ payload) sched) = (expect2 ntop6 h, s') /\
    handle_v2 ntop6 (mk_sock (enc_v2 h ++ payload) sched)
      = (match expect2 ntop6 h with Ok (src, _) => HAddr src | _ => HLocal end, s') /\
    s_data s' = payload /\
    consumed (mk_sock (enc_v2 h ++ payload) sched) s' = length (enc_v2 h).
Proof.
  intros ntop6 h payload sched Hwf.
  destruct (process_v2_exact ntop6 h [] (enc_v2 h) payload sched Hwf eq_refl (le_0_n 16)) as (sched' & Hq).
  exists (mk_sock payload sched'). split; [exact Hq|]. split; [|split; [reflexivity|apply consumed_app]].
  unfold handle_v2. rewrite Hq. destruct h; reflexivity.
Qed.
Print Assumptions C18_v2_exact.

(* Version auto-detection (ProxyProtocol.handle): the 8-byte sniff selects the
   right parser, with the same result and the same exact consumption. *)
Theorem C18_autodetect : forall pton6 ntop6, ip6_oracle pton6 ntop6 ->
  (forall h payload sched, wf1 h = true ->
     exists s', process_auto pton6 ntop6 (mk_sock (enc_v1 ntop6 h ++ payload) sched) = (Ok (expect1 ntop6 h), s')
                /\ s_data s' = payload) /\
  (forall h payload sched, wf2 h = true ->
     exists s', process_auto pton6 ntop6 (mk_sock (enc_v2 h ++ payload) sched) = (expect2 ntop6 h, s')
                /\ s_data s' = payload).
Proof. intros pton6 ntop6 H6. split; [exact (auto_v1 pton6 ntop6 H6)|exact (auto_v2 pton6 ntop6)]. Qed.
Print Assumptions C18_autodetect.

(* For EVERY stream and schedule (and every IPv6 oracle) what a handler took
   is a prefix of the stream of at most 107 bytes (v1), 16 + the declared
   length (v2), and for the dispatcher whichever of the two its sniff selects. *)
Theorem C18_bounded : forall pton6 ntop6 s,
  (exists pre, s_data s = pre ++ s_data (snd (handle_v1 pton6 ntop6 s)) /\ (length pre <= 107)%nat) /\
  (exists pre, s_data s = pre ++ s_data (snd (handle_v2 ntop6 s)) /\ (length pre <= 16 + declared (s_data s))%nat) /\
  (exists pre, s_data s = pre ++ s_data (snd (handle_auto pton6 ntop6 s)) /\
               (length pre <= if starts_with PROXY_SP (s_data s) then 107 else 16 + declared (s_data s))%nat).
Proof.
  intros pton6 ntop6 s. split; [|split].
  - exact (proj1 (handle_v1_every pton6 ntop6 s)).
  - exact (proj1 (handle_v2_every ntop6 s)).
  - exact (proj1 (handle_auto_every pton6 ntop6 s)).
Qed.
Print Assumptions C18_bounded.

(* For EVERY stream and schedule handle() ends in one of: handler called with a
   parsed address, handler called with the invalid address (the module's
   AssertionError was caught), connection dropped for LOCAL.  No other
   exception leaves handle() and the reading loops terminate (the model's
   fuel is never exhausted).  ProxyProtocolV1 never drops. *)
Theorem C18_total : forall pton6 ntop6 s,
  match fst (handle_v1 pton6 ntop6 s) with HAddr _ | HInvalid _ => True | _ => False end /\
  settled (fst (handle_v2 ntop6 s)) /\
  settled (fst (handle_auto pton6 ntop6 s)).
Proof.
  intros pton6 ntop6 s. split; [|split].
  - exact (proj2 (handle_v1_every pton6 ntop6 s)).
  - exact (proj2 (handle_v2_every ntop6 s)).
  - exact (proj2 (handle_auto_every pton6 ntop6 s)).
Qed.
Print Assumptions C18_total.

(* inet_ntop6 / inet_pton6 as glibc 2.36 computes them (model/Proxy.v) satisfy
   the IPv6 assumption: for every 16-byte address the printed text has at most
   39 characters, all printable non-space ASCII, and parses back to the address. *)
Theorem C18_ip6_glibc : ip6_oracle glibc_pton6 glibc_ntop6.
Proof. exact glibc_ip6_oracle. Qed.
Print Assumptions C18_ip6_glibc.

(* Exactness for the executable model (no oracle left): v1 headers through
   ProxyProtocolV1 and through the auto-detecting ProxyProtocol. *)
Theorem C18_exact_model : forall h payload sched, wf1 h = true ->
  (exists s',
     handle_v1 glibc_pton6 glibc_ntop6 (mk_sock (enc_v1 glibc_ntop6 h ++ payload) sched)
       = (HAddr (fst (expect1 glibc_ntop6 h)), s') /\ s_data s' = payload) /\
  (exists s',
     handle_auto glibc_pton6 glibc_ntop6 (mk_sock (enc_v1 glibc_ntop6 h ++ payload) sched)
       = (HAddr (fst (expect1 glibc_ntop6 h)), s') /\ s_data s' = payload).
Proof.
  intros h payload sched Hwf. split.
  - destruct (C18_v1_exact _ _ glibc_ip6_oracle h payload sched Hwf) as (s' & _ & Hh & Hd & _). exists s'. split; assumption.
  - destruct (auto_v1 _ _ glibc_ip6_oracle h payload sched Hwf) as (s' & Hp & Hd). exists s'. split; [|exact Hd].
    unfold handle_auto, finish. rewrite Hp. destruct (expect1 glibc_ntop6 h). reflexivity.
Qed.
Print Assumptions C18_exact_model.

(* The readers written as coroutines (one step per recv_into call, the places
   where gevent can switch to another connection; every per-call buffer is
   local to the suspended reader) compute exactly the big-step functions the
   theorems above are about. *)
Theorem C18_smallstep_refines : forall pton6 ntop6 s,
  run_proc (p_process_v1 pton6 ntop6 []) s = process_pp_v1 pton6 ntop6 [] s /\
  run_proc (p_process_v2 ntop6 []) s = process_pp_v2 ntop6 [] s /\
  run_proc (p_process_auto pton6 ntop6) s = process_auto pton6 ntop6 s.
Proof.
  intros pton6 ntop6 s.
  split; [apply run_p_process_v1|split; [apply run_p_process_v2|apply run_p_process_auto]].
Qed.
Print Assumptions C18_smallstep_refines.

(* Any number of connections served concurrently, any schedule of whose
   recv_into returns next (picks), any readers: connection j is always in the
   state of having made its own steps only, and once its reader has finished
   its result and its socket are those of running alone on its own byte stream
   and read sizes.  With C18_smallstep_refines every theorem above therefore
   holds per connection under every interleaving. *)
Theorem C18_connections_independent : forall picks cs j p s,
  nth_error cs j = Some (p, s) ->
  nth j (run_conns picks cs) (p, s) = iter_step (count_pick j picks) (p, s) /\
  (forall r s', nth_error (run_conns picks cs) j = Some (PDone r, s') -> run_proc p s = (r, s')).
Proof.
  intros picks cs j p s Hj. pose proof (conn_alone picks cs j (p, s) Hj) as E. split; [exact E|].
  intros r s' Hr. apply (iter_step_done (count_pick j picks)). rewrite <- E. exact (nth_error_nth _ _ _ Hr).
Qed.
Print Assumptions C18_connections_independent.

(* handle() with the call of the wrapped handler as an explicit step, for every
   stream, schedule and EVERY behaviour of the wrapped handler [h] (returning or
   raising any exception, after reading any part of the payload): the coroutine
   does after the parser exactly [after_parse], and therefore ([called_once])
   the wrapped handler is called exactly once - with the address the parser
   produced (the invalid address (None, None) for a bad header), on the socket
   exactly as the parser left it - and handle() ends the way that one call
   ended: it returns if the handler returned, and the handler's exception
   propagates unchanged; for a LOCAL header there is no call and handle()
   returns. *)
Theorem C18_handler_called_once : forall pton6 ntop6 h s,
  (run_h (p_handle_v1 pton6 ntop6) h s = after_parse h (handle_v1 pton6 ntop6 s) /\
   called_once h (handle_v1 pton6 ntop6 s) (run_h (p_handle_v1 pton6 ntop6) h s)) /\
  (run_h (p_handle_v2 ntop6) h s = after_parse h (handle_v2 ntop6 s) /\
   called_once h (handle_v2 ntop6 s) (run_h (p_handle_v2 ntop6) h s)) /\
  (run_h (p_handle_auto pton6 ntop6) h s = after_parse h (handle_auto pton6 ntop6 s) /\
   called_once h (handle_auto pton6 ntop6 s) (run_h (p_handle_auto pton6 ntop6) h s)).
Proof.
  intros pton6 ntop6 h s. repeat split.
  - apply handle_v1_once.
  - rewrite handle_v1_once. apply after_parse_once.
    pose proof (proj2 (handle_v1_every pton6 ntop6 s)) as T. destruct (fst (handle_v1 pton6 ntop6 s)); cbn in *; tauto.
  - apply handle_v2_once.
  - rewrite handle_v2_once. apply after_parse_once, handle_v2_every.
  - apply handle_auto_once.
  - rewrite handle_auto_once. apply after_parse_once, handle_auto_every.
Qed.
Print Assumptions C18_handler_called_once.
