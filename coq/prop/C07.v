(* C07 - the SMTP server enforces command order and resets transaction state.
   Each theorem follows in a few lines from the general lemmas of proof/Server_lemmas.v (per step:
   error_step, reset_after_command, raised_exn, exn_ends; per session: callbacks_in_order,
   run_session_live, run_session_struct); model in model/Server.v
   (Server.handle/_command_* + SmtpSession as in the current /repo: fixes d12, d25, d2b, d11, d16, AUTH clear-text gate).

   `run_session cfg vb items` = (one `out` for the connection/banner, then one per command
   line the server read; final state; how handle() ended).  Quantification: every
   configuration, every banner verdict, every list of items; an item is a parsed command
   line (any word, any argument bytes) together with the application's decisions for every
   callback that line can reach (any verdict: keep / any code / raise an Exception, a
   gevent.Timeout or a GreenletExit-like BaseException), the queue result,
   the message content, the AUTH and TLS oracle results. *)
From Coq Require Import List NArith Bool.
From SV Require Import lib.Bytes model.Server proof.Server_lemmas.
Import ListNotations.
Open Scope N_scope.

(* For all command sequences and all decisions of the application, the ordered trace of
   handler callbacks (with their arguments and resulting reply codes) and queue handoffs is
   accepted by the protocol-order automaton `aut_step`: greeting accepted < EHLO/HELO accepted
   < MAIL accepted < RCPT accepted (>= 1) < DATA < content callback; resets by accepted
   EHLO/HELO/RSET and by the content callback; the handoff carries exactly the sender and
   recipients accepted since the last reset; nothing follows a callback that raised or
   answered 221/421. *)
Theorem C07_callbacks_in_order : forall cfg vb items,
  accepts (trace (fst (fst (run_session cfg vb items)))) = true.
Proof. exact callbacks_in_order. Qed.
Print Assumptions C07_callbacks_in_order.

(* In every reachable session state: a malformed command line, or one whose callback the
   automaton does not allow at this point, gets exactly one reply, that reply is 4xx/5xx,
   and no callback is invoked. *)
Theorem C07_error_no_callback : forall cfg vb pre outs st a it,
  run_session cfg vb pre = (outs, st, Continue) ->
  aut_run a_init (trace outs) = Some a ->
  malformed (it_line it) = true \/ out_of_order a (it_line it) = true ->
  o_events (snd (step st it)) = [] /\
  exists c, o_replies (snd (step st it)) = [c] /\ 400 <= c /\ c < 600.
Proof.
  intros cfg vb pre outs st a it Hrun Ha Hbad. destruct (run_session_live _ _ _ _ _ Hrun) as [S C].
  rewrite Ha in S. injection S as ->. exact (error_step st it C Hbad).
Qed.
Print Assumptions C07_error_no_callback.

(* From ANY state: after an RSET/EHLO/HELO answered 250, and after every DATA whose content
   was transferred (354 sent; accepted, rejected, too big, queue error, 421 ...), the server's
   have_mailfrom/have_rcptto are false and the edge session's envelope is None - provided no
   callback of that command raised (then the session is over, see C07_raising_callback). *)
Theorem C07_reset : forall st it,
  raised (snd (step st it)) = false ->
  (resets (it_line it) = true /\ o_replies (snd (step st it)) = [250]) \/
  (classify (it_line it) = CData /\ In 354 (o_replies (snd (step st it)))) ->
  s_mail (sv (fst (step st it))) = false /\ s_rcpt (sv (fst (step st it))) = false /\
  e_env (ed (fst (step st it))) = None.
Proof. exact reset_after_command. Qed.
Print Assumptions C07_reset.

(* Between commands the server's flags and the edge's envelope describe the same transaction. *)
Theorem C07_server_edge_agree : forall cfg vb items outs st,
  run_session cfg vb items = (outs, st, Continue) ->
  s_mail (sv st) = is_some (e_env (ed st)) /\ s_rcpt (sv st) = has_rcpt (e_env (ed st)).
Proof.
  intros cfg vb items outs st Hrun. destruct (run_session_live _ _ _ _ _ Hrun) as [_ (M & R & _)]. split; assumption.
Qed.
Print Assumptions C07_server_edge_agree.

(* The connection start gets one reply; the i-th command line read gets `inter ++ [c]`:
   one final reply c, preceded only by 354 (DATA accepted), by one 334 per AUTH challenge
   round, or by the 220 of a STARTTLS whose handshake then fails (c = 421, session closed).
   The single documented exception (`killed_shape`, second disjunct of `shape`/`banner_shape`):
   a callback of that line is killed by a GreenletExit-like BaseException (one of the line's
   decisions is VRaise FKill): only the intermediates already written, the session is over.
   Any other raising callback - Exception subclass, gevent.Timeout - is answered (421).
   Lines after the end of the session get nothing. *)
Theorem C07_one_reply_per_command : forall cfg vb items outs st f,
  run_session cfg vb items = (outs, st, f) ->
  exists o0 os, outs = o0 :: os /\
    banner_shape vb o0 /\
    Forall2 shape (firstn (length os) items) os /\
    (length os <= length items)%nat /\
    (f = Continue -> length os = length items).
Proof.
  intros cfg vb items outs st f Hrun. exact (proj1 (run_session_struct _ _ _ _ _ _ Hrun)).
Qed.
Print Assumptions C07_one_reply_per_command.

(* A 221/421 reply is the last reply of the session: nothing is read or answered after it. *)
Theorem C07_close_codes_end_session : forall cfg vb items outs st f pre o post c,
  run_session cfg vb items = (outs, st, f) ->
  outs = pre ++ o :: post ->
  In c (o_replies o) -> is_close c = true ->
  post = [] /\ f <> Continue /\ exists before, o_replies o = before ++ [c].
Proof.
  intros cfg vb items outs st f pre o post c Hrun E Hin Hc.
  destruct (proj2 (run_session_struct _ _ _ _ _ _ Hrun) _ _ _ E) as [[Ho _] F]. destruct (Ho c Hin Hc) as [N B].
  destruct post; [|contradiction (N F)]. rewrite F in N. auto.
Qed.
Print Assumptions C07_close_codes_end_session.

(* ... and the server closes a session on its own only with a 221/421 as last reply. *)
Theorem C07_closed_only_by_close_code : forall cfg vb items outs st,
  run_session cfg vb items = (outs, st, Closed) ->
  exists pre o before c, outs = pre ++ [o] /\ o_replies o = before ++ [c] /\ is_close c = true.
Proof.
  intros cfg vb items outs st Hrun.
  destruct (run_session_struct _ _ _ _ _ _ Hrun) as [(o0 & os & -> & _) R].
  destruct (@exists_last _ (o0 :: os)) as (pre & o & E); [discriminate|].
  destruct (R _ _ _ E) as [[_ Ho] F]. destruct (Ho F) as (before & c & Rp & C). exists pre, o, before, c. auto.
Qed.
Print Assumptions C07_closed_only_by_close_code.

(* Whatever a callback raises, the session ends with that command; an Exception subclass or a
   gevent.Timeout (a BaseException) leaking out of the application's callback is answered with a
   final 421; only a kill (GreenletExit family) goes unanswered. *)
Theorem C07_raising_callback : forall st it,
  raised (snd (step st it)) = true ->
  o_fin (snd (step st it)) <> Continue /\
  ((exists inter, o_replies (snd (step st it)) = inter ++ [421]) \/
   (has_kill it = true /\ o_fin (snd (step st it)) = Crashed)).
Proof.
  intros st it H. destruct (raised_exn st it H) as (st' & rs & es & f & E & F).
  unfold step. rewrite E. exact (exn_ends it st' rs es f F).
Qed.
Print Assumptions C07_raising_callback.
