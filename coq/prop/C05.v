(* C05 -- Message content crosses DATA framing unchanged under any segmentation.

   Statements and their derivations from the lemmas of proof/Data_lemmas.v; the model is in
   model/Data.v (DataSender and DataReader of slimta/smtp, the reader after the
   repair of defect D1, see /verif/fixes/d1-datareader-eod0.diff).

   Vocabulary (model/Data.v):
     send parts            wire bytes written by DataSender(parts...).send(io)
     dr_recv None buf sock DataReader(io).recv() with io.recv_buffer = buf and a
                           socket whose recv() calls return the elements of
                           sock (b'' / exhausted = end of file); no size limit
     ROk d rb rest         recv() returned d, io.recv_buffer is rb, the socket
                           still holds rest;  RLost = ConnectionLost
     outcome r             Some (data, every unread byte) or None
     expected m            m if m is empty or ends with CRLF, else m ++ CRLF
     read_spec s           batch specification: split s at its first
                           end-of-data line, remove one leading dot per line
     dot_parts_at_bol ps   every part that starts with '.' starts at a line
                           boundary of the message (true for one part, for any
                           split at line boundaries, for any split of which no
                           later part starts with '.')
   All statements are for max_size = None (the size limit is property C09). *)
From Coq Require Import List NArith.
From SV Require Import lib.Bytes model.Data proof.Data_lemmas model.DataObj proof.DataObj_lemmas.
Import ListNotations.
Open Scope N_scope.

(* Every message m = concat parts, every admissible split into sender parts,
   every trailing byte string t, every part of the wire pre-loaded in
   io.recv_buffer, every segmentation of the rest into recv() results: the
   reader returns exactly `expected m` and leaves exactly t unread. *)
Theorem C05_roundtrip : forall (parts : list bytes) (t buf : bytes) (chunks : list bytes),
  dot_parts_at_bol parts ->
  Forall (fun c => c <> []) chunks ->
  buf ++ concat chunks = send parts ++ t ->
  exists rb rest,
    dr_recv None buf chunks = ROk (expected (concat parts)) rb rest
    /\ rb ++ concat rest = t.
Proof. exact roundtrip. Qed.
Print Assumptions C05_roundtrip.

(* the quantifier of the property text: splits at line boundaries *)
Theorem C05_roundtrip_line_split : forall (parts : list bytes) (t buf : bytes) (chunks : list bytes),
  line_split parts ->
  Forall (fun c => c <> []) chunks ->
  buf ++ concat chunks = send parts ++ t ->
  exists rb rest,
    dr_recv None buf chunks = ROk (expected (concat parts)) rb rest
    /\ rb ++ concat rest = t.
Proof. intros parts t buf chunks H. apply roundtrip, line_split_ok, H. Qed.
Print Assumptions C05_roundtrip_line_split.

(* The reader consumes the stream exactly up to and including the
   end-of-data line: the pieces it took from the socket (`used`) together with
   the old buffer are the sender's bytes plus what it hands back in
   io.recv_buffer; nothing of t is lost; and it never asks the socket for
   another piece once the end-of-data line is complete (the last piece it took
   was still needed). *)
Theorem C05_exact_consumption : forall (parts : list bytes) (t buf : bytes) (chunks : list bytes)
                                       (d rb : bytes) (rest : list bytes),
  dot_parts_at_bol parts ->
  buf ++ concat chunks = send parts ++ t ->
  dr_recv None buf chunks = ROk d rb rest ->
  exists used,
    chunks = used ++ rest
    /\ buf ++ concat used = send parts ++ rb
    /\ t = rb ++ concat rest
    /\ (used = [] \/ (length (buf ++ concat (removelast used)) < length (send parts))%nat).
Proof.
  intros parts t buf chunks d rb rest Hp.
  apply consumption_of_message with (m := expected (concat parts)). intros t'. apply read_spec_wire, Hp.
Qed.
Print Assumptions C05_exact_consumption.

(* the same for an arbitrary byte stream (not necessarily written by DataSender) *)
Theorem C05_exact_consumption_any_stream : forall (buf : bytes) (chunks : list bytes)
                                                  (d rb : bytes) (rest : list bytes),
  dr_recv None buf chunks = ROk d rb rest ->
  exists used,
    chunks = used ++ rest
    /\ read_spec (buf ++ concat used) = Some (d, rb)
    /\ (used = [] \/ read_spec (buf ++ concat (removelast used)) = None).
Proof. intros buf chunks d rb rest. apply recv_loop_consumption. Qed.
Print Assumptions C05_exact_consumption_any_stream.

(* The result does not depend on how the stream was cut into reads, nor on how
   much of it was already in io.recv_buffer. *)
Theorem C05_segmentation_independent : forall (buf : bytes) (chunks : list bytes)
                                              (buf' : bytes) (chunks' : list bytes),
  Forall (fun c => c <> []) chunks -> Forall (fun c => c <> []) chunks' ->
  buf ++ concat chunks = buf' ++ concat chunks' ->
  outcome (dr_recv None buf chunks) = outcome (dr_recv None buf' chunks').
Proof. intros buf chunks buf' chunks' H H' E. rewrite !dr_recv_batch, E by assumption. reflexivity. Qed.
Print Assumptions C05_segmentation_independent.

(* incremental = batch: the outcome is the batch specification applied to the
   whole stream (None = ConnectionLost: no complete end-of-data line) *)
Theorem C05_incremental_is_batch : forall (buf : bytes) (chunks : list bytes),
  Forall (fun c => c <> []) chunks ->
  outcome (dr_recv None buf chunks) = read_spec (buf ++ concat chunks).
Proof. exact dr_recv_batch. Qed.
Print Assumptions C05_incremental_is_batch.

(* what read_spec returns is what its description says *)
Theorem C05_read_spec_sound : forall (s d r : bytes),
  read_spec s = Some (d, r) ->
  exists (ls : list bytes) (e : bytes),
    s = unraw ls ++ (e ++ [10]) ++ r
    /\ forallb nolf ls = true /\ nolf e = true
    /\ forallb (fun l => negb (is_eod (l ++ [10]))) ls = true
    /\ is_eod (e ++ [10]) = true
    /\ d = concat (map (fun l => undot (l ++ [10])) ls).
Proof. exact read_spec_sound. Qed.
Print Assumptions C05_read_spec_sound.

(* Outside the guard of C05_roundtrip the sender is not transparent: a part
   that starts with '.' in the middle of a line ("a" + ".b") has that dot
   doubled by _process_part and the server receives "a..b\r\n". *)
Theorem C05_midline_dot_part_altered :
  outcome (dr_recv None [] [send [[97]; [46; 98]]]) = Some ([97; 46; 46; 98; 13; 10], [])
  /\ expected (concat [[97]; [46; 98]]) = [97; 46; 98; 13; 10].
Proof. split; vm_compute; reflexivity. Qed.
Print Assumptions C05_midline_dot_part_altered.

(* Re-use of one DataSender object (model/DataObj.v): __iter__ / send build
   fresh generators from the stored parts and assign nothing, so the output is
   a function of the parts: the first and every later emission of the same
   object (iterated, sent, sent to another IO, measured and then sent) is the
   same complete wire string `send parts`, and the object is unchanged. *)
Theorem C05_sender_output_is_a_function_of_the_parts : forall (parts : list bytes) (n : nat),
  emissions (sender_new parts) n = repeat (send parts) n
  /\ (forall w, In w (emissions (sender_new parts) n) -> w = send parts)
  /\ snd (sender_send (sender_new parts)) = sender_new parts.
Proof.
  intros parts n. split; [apply emissions_repeat|]. split; [apply emission_is_send|reflexivity].
Qed.
Print Assumptions C05_sender_output_is_a_function_of_the_parts.

(* hence every emission, not only the first, round-trips *)
Theorem C05_every_emission_round_trips : forall (parts : list bytes) (n : nat) (w t buf : bytes) (chunks : list bytes),
  In w (emissions (sender_new parts) n) ->
  dot_parts_at_bol parts ->
  Forall (fun c => c <> []) chunks ->
  buf ++ concat chunks = w ++ t ->
  exists rb rest,
    dr_recv None buf chunks = ROk (expected (concat parts)) rb rest
    /\ rb ++ concat rest = t.
Proof.
  intros parts n w t buf chunks Hw. rewrite (emission_is_send _ _ _ Hw). apply roundtrip.
Qed.
Print Assumptions C05_every_emission_round_trips.
