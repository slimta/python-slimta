(* C15 - every queue storage backend behaves like the same simple store.
   The statements, each derived in a few lines from the general lemmas of
   proof/Store_lemmas.v (`simulates` with run_sim and seq_frame for every
   backend, frame_interleaved), Rounds_lemmas.v, Prog_lemmas.v, Disk_lemmas.v.

   ref_run     the reference store  id -> (envelope with the outstanding recipients, timestamp, attempts)
   wf_ops      the sequences the property quantifies over (updates/removes address live messages,
               marking rounds use distinct in-range indexes, get addresses any id)
   res_match   equality of results, load() lists compared as multisets
   R<backend>  the abstraction relation; it contains  view s id = rlookup r id  for every id *)
From Coq Require Import List NArith Permutation.
From SV Require Import model.Store.
From SV Require Import proof.List_lemmas proof.Rounds_lemmas proof.Prog_lemmas proof.Disk_lemmas proof.Store_lemmas.
Import ListNotations.
Open Scope N_scope.

Theorem C15_refines_dict : forall ops s r,
  RDict s r -> wf_ops r ops = true ->
  RDict (fst (dict_run s ops)) (fst (ref_run r ops)) /\
  Forall2 res_match (snd (dict_run s ops)) (snd (ref_run r ops)) /\
  forall id, dict_view (fst (dict_run s ops)) id = rlookup (fst (ref_run r ops)) id.
Proof.
  intros ops s r H Hwf. apply (run_sim dict_simulates); [exact H|exact Hwf|apply Forall_I].
Qed.
Print Assumptions C15_refines_dict.

(* DictStorage over copy-on-access mappings (shelve): every method reads a
   copy, modifies it and assigns it back *)
Theorem C15_refines_dict_copying : forall ops s r,
  RCDict s r -> wf_ops r ops = true ->
  RCDict (fst (cdict_run true s ops)) (fst (ref_run r ops)) /\
  Forall2 res_match (snd (cdict_run true s ops)) (snd (ref_run r ops)) /\
  forall id, cdict_view (fst (cdict_run true s ops)) id = rlookup (fst (ref_run r ops)) id.
Proof.
  intros ops s r H Hwf. apply (run_sim cdict_simulates); [exact H|exact Hwf|apply Forall_I].
Qed.
Print Assumptions C15_refines_dict_copying.

(* ... and without the assignment (the shipped set_recipients_delivered before
   d35) the update is lost on such a mapping *)
Theorem C15_dict_copying_noassign_refuted :
  exists ops, wf_ops [] ops = true /\
              ~ Forall2 res_match (snd (cdict_run false cdict_init ops)) (snd (ref_run [] ops)).
Proof.
  exists [OWrite (mkEnv [1] [[2]; [3]] [4]) 5 [7] []; ODeliv 7 [0] []; OIncr 7 []; OSetTs 7 9 []; OGet 7; OLoad 0].
  split; [vm_compute; reflexivity|]. vm_compute. intros H.
  do 4 (inversion H as [|? ? ? ? _ H']; subst; clear H; rename H' into H).
  inversion H as [|? ? ? ? E _]. discriminate E.
Qed.
Print Assumptions C15_dict_copying_noassign_refuted.

Theorem C15_frame_dict_copying : forall s r o j,
  RCDict s r -> wf_op r o = true -> ref_target r o <> Some j ->
  cdict_view (fst (cdict_step true s o)) j = cdict_view s j.
Proof.
  intros s r o j H Hwf. apply (seq_frame cdict_simulates); [exact H|exact Hwf|exact I].
Qed.
Print Assumptions C15_frame_dict_copying.

Theorem C15_refines_redis : forall ops s r,
  RRedisO [] s r -> wf_ops r ops = true ->
  RRedisO [] (fst (redis_run s ops)) (fst (ref_run r ops)) /\
  Forall2 res_match (snd (redis_run s ops)) (snd (ref_run r ops)) /\
  forall id, redis_view (fst (redis_run s ops)) id = rlookup (fst (ref_run r ops)) id.
Proof.
  intros ops s r H Hwf. apply (run_sim (redis_simulates [])); [exact H|exact Hwf|].
  apply Forall_forall. intros o _. apply avoids_nil.
Qed.
Print Assumptions C15_refines_redis.

(* redis with wait() calls anywhere in between (the queue consuming the
   announcement list or not): the storage operations still answer like the
   reference store - in particular load() with pending announcements *)
Theorem C15_refines_redis_wait : forall its orph s r,
  RRedisO orph s r -> items_wf orph r its ->
  (exists orph', RRedisO orph' (fst (redis_run_items s its)) (fst (ref_run r (ritem_ops its)))) /\
  Forall2 res_match (op_results its (snd (redis_run_items s its))) (snd (ref_run r (ritem_ops its))).
Proof.
  intros its orph s r H Hwf. destruct (refines_redis_items its orph s r H Hwf) as [H1 H2].
  split; [exists (items_orph orph its); exact H1|exact H2].
Qed.
Print Assumptions C15_refines_redis_wait.

(* half-written entries (a writer died between HSETNX envelope and the
   pipeline): every operation that stays clear of them still answers like the
   reference store and leaves them alone ... *)
Theorem C15_refines_redis_orphans : forall orph ops s r,
  RRedisO orph s r -> wf_ops r ops = true -> Forall (avoids orph) ops ->
  RRedisO orph (fst (redis_run s ops)) (fst (ref_run r ops)) /\
  Forall2 res_match (snd (redis_run s ops)) (snd (ref_run r ops)).
Proof.
  intros orph ops s r H Hwf Hav. destruct (run_sim (redis_simulates orph) ops s r H Hwf Hav) as (H1 & H2 & _).
  split; assumption.
Qed.
Print Assumptions C15_refines_redis_orphans.

(* ... load() does not raise on them, changes nothing, lists every live message
   with its timestamp and each half-written entry with the current clock;
   get() of one returns its envelope with attempts 0; and the half-write itself
   only adds such an entry *)
Theorem C15_redis_load_with_orphans : forall orph s r now,
  RRedisO orph s r ->
  fst (run rexec (redis_prog (OLoad now)) s) = s /\
  exists l, snd (run rexec (redis_prog (OLoad now)) s) = RLoad l /\
            Permutation l (map (fun p => (en_ts (snd p), fst p)) r ++ map (fun p => (now, fst p)) orph).
Proof.
  intros orph s r now H. rewrite redis_load_run. split; [reflexivity|].
  eexists. split; [reflexivity|apply redis_load_perm, H].
Qed.
Print Assumptions C15_redis_load_with_orphans.

Theorem C15_redis_orphan_entries : forall orph s r id e,
  RRedisO orph s r ->
  (alookup N.eqb orph id = Some e -> run rexec (redis_prog (OGet id)) s = (s, RGot e 0)) /\
  (rlookup r id = None -> alookup N.eqb orph id = None ->
   RRedisO (aset N.eqb orph id e) (fst (rexec s (QHsetnxEnv id e))) r).
Proof.
  intros orph s r id e H. split.
  - apply (redis_get_orphan orph s r); exact H.
  - apply redis_orphan_injection; exact H.
Qed.
Print Assumptions C15_redis_orphan_entries.

(* load() does not depend on the announcement list and leaves the store alone *)
Theorem C15_redis_load_ignores_announcements : forall s q now,
  snd (run rexec (redis_prog (OLoad now)) (mkRedis (r_hashes s) q)) = snd (run rexec (redis_prog (OLoad now)) s) /\
  fst (run rexec (redis_prog (OLoad now)) s) = s.
Proof. intros s q now. rewrite !redis_load_run. split; reflexivity. Qed.
Print Assumptions C15_redis_load_ignores_announcements.

(* a successful write() announces (timestamp, id) at the end of the list and
   wait() hands the announcements out first in, first out, with that very id *)
Theorem C15_redis_announcements : forall s r,
  RRedisO [] s r ->
  (forall e ts cands tmps id, snd (redis_step s (OWrite e ts cands tmps)) = RId id ->
     r_queue (fst (redis_step s (OWrite e ts cands tmps))) = r_queue s ++ [(ts, id)]) /\
  (forall x q, r_queue s = x :: q -> run rexec redis_wait s = (mkRedis (r_hashes s) q, RLoad [x])).
Proof.
  intros s r H. split.
  - intros e ts cands tmps id. apply (redis_write_announces [] s r); [exact H|intros; reflexivity].
  - intros x q E. cbn [redis_wait run rexec]. rewrite E. reflexivity.
Qed.
Print Assumptions C15_redis_announcements.

Theorem C15_refines_cloud : forall mq ops s r,
  RCloud s r -> wf_ops r ops = true ->
  RCloud (fst (cloud_run mq s ops)) (fst (ref_run r ops)) /\
  Forall2 res_match (snd (cloud_run mq s ops)) (snd (ref_run r ops)) /\
  forall id, cloud_view (fst (cloud_run mq s ops)) id = rlookup (fst (ref_run r ops)) id.
Proof.
  intros mq ops s r H Hwf. apply (run_sim (cloud_simulates mq)); [exact H|exact Hwf|apply Forall_I].
Qed.
Print Assumptions C15_refines_cloud.

(* Disk: for every pickle codec that round-trips and never produces an empty
   string, every positive chunk size and every behaviour of the asynchronous
   writes short of an error (short writes included), whenever the operations are handed
   enough temp names *)
Theorem C15_refines_disk :
  forall (enc_env : envelope -> bytes) dec_env (enc_meta : meta -> bytes) dec_meta chunk,
  (forall e, dec_env (enc_env e) = Some e) -> (forall m, dec_meta (enc_meta m) = Some m) ->
  (forall e, enc_env e <> []) -> (forall m, enc_meta m <> []) -> wcfg_ok chunk ->
  forall ops s r,
  RDisk enc_env enc_meta s r -> wf_ops r ops = true -> Forall tmps_ok ops ->
  let out := disk_run enc_env dec_env enc_meta dec_meta chunk s ops in
  RDisk enc_env enc_meta (fst out) (fst (ref_run r ops)) /\
  Forall2 res_match (snd out) (snd (ref_run r ops)) /\
  forall id, disk_view dec_env dec_meta (fst out) id = rlookup (fst (ref_run r ops)) id.
Proof.
  intros enc_env dec_env enc_meta dec_meta chunk A1 A2 A3 A4 A5 ops s r.
  apply (run_sim (disk_simulates enc_env dec_env enc_meta dec_meta chunk A1 A2 A3 A4 A5)).
Qed.
Print Assumptions C15_refines_disk.

(* the codec hypotheses are satisfiable: the executable number codec *)
Theorem C15_refines_disk_numcodec : forall chunk ops,
  wcfg_ok chunk -> wf_ops [] ops = true -> Forall tmps_ok ops ->
  Forall2 res_match (snd (disk_run nc_enc_env nc_dec_env nc_enc_meta nc_dec_meta chunk [] ops)) (snd (ref_run [] ops)).
Proof.
  intros chunk ops Hc Hwf Ht.
  apply (run_sim (disk_simulates nc_enc_env nc_dec_env nc_enc_meta nc_dec_meta chunk nc_dec_enc_env nc_dec_enc_meta
                    nc_enc_env_nonempty nc_enc_meta_nonempty Hc) ops [] []); [apply RDisk_init|exact Hwf|exact Ht].
Qed.
Print Assumptions C15_refines_disk_numcodec.

Theorem C15_initial_states_related :
  RDict dict_init [] /\ RCDict cdict_init [] /\ RRedisO [] redis_init [] /\ (forall f, RCloud (cloud_init f) []) /\
  RDisk nc_enc_env nc_enc_meta [] [].
Proof. split; [apply RDict_init|]. split; [apply RCDict_init|]. split; [apply RRedis_init|]. split; [apply RCloud_init|apply RDisk_init]. Qed.
Print Assumptions C15_initial_states_related.

(* What the reference store promises (hence every backend, by the theorems above) *)
Theorem C15_write_fresh : forall r e ts cands tmps r' id,
  ref_step r (OWrite e ts cands tmps) = (r', RId id) ->
  rlookup r id = None /\ In id cands /\ rlookup r' id = Some (mkEntry e ts 0).
Proof. exact ref_write_fresh. Qed.
Print Assumptions C15_write_fresh.

Theorem C15_attempts : forall r id tmps en,
  rlookup r id = Some en ->
  snd (ref_step r (OIncr id tmps)) = RAtt (en_att en + 1) /\
  rlookup (fst (ref_step r (OIncr id tmps))) id = Some (mkEntry (en_env en) (en_ts en) (en_att en + 1)).
Proof. intros r id tmps en E. cbn [ref_step]. rewrite E. split; [reflexivity|apply nget_set_same]. Qed.
Print Assumptions C15_attempts.

Theorem C15_get : forall r id,
  snd (ref_step r (OGet id)) = match rlookup r id with Some en => RGot (en_env en) (en_att en) | None => RMissing end.
Proof. intros r id. cbn [ref_step]. destruct (rlookup r id); reflexivity. Qed.
Print Assumptions C15_get.

Theorem C15_load_live : forall r now ts id,
  ref_ok r ->
  exists l, snd (ref_step r (OLoad now)) = RLoad l /\
            (In (ts, id) l <-> exists en, rlookup r id = Some en /\ en_ts en = ts).
Proof. intros r now ts id Hok. eexists. split; [reflexivity|]. apply listing_In, Hok. Qed.
Print Assumptions C15_load_live.

Theorem C15_marked_absent : forall r id tmps en (p : bytes -> bool),
  rlookup r id = Some en ->
  let o := ODeliv id (positions p (e_rcpts (en_env en)) 0) tmps in
  snd (ref_step r o) = RUnit /\
  snd (ref_step (fst (ref_step r o)) (OGet id)) =
    RGot (with_rcpts (en_env en) (filter (fun x => negb (p x)) (e_rcpts (en_env en)))) (en_att en).
Proof.
  intros r id tmps en p E o. unfold o. cbn [ref_step]. rewrite E, round_positions. cbn [fst snd]. split; [reflexivity|].
  unfold rlookup. rewrite nget_set_same. reflexivity.
Qed.
Print Assumptions C15_marked_absent.

Theorem C15_removed_gone : forall r id ops,
  rlookup (fst (ref_step r (ORemove id))) id = None /\
  (rlookup r id = None -> Forall (writes_avoid id) ops -> rlookup (fst (ref_run r ops)) id = None).
Proof. intros r id ops. split; [apply nget_del_same|apply ref_run_dead]. Qed.
Print Assumptions C15_removed_gone.

(* Frame: an operation on one message leaves every other message as it was *)
Theorem C15_frame_dict : forall s r o j,
  RDict s r -> wf_op r o = true -> ref_target r o <> Some j ->
  dict_view (fst (dict_step s o)) j = dict_view s j.
Proof.
  intros s r o j H Hwf. apply (seq_frame dict_simulates); [exact H|exact Hwf|exact I].
Qed.
Print Assumptions C15_frame_dict.

Theorem C15_frame_redis : forall s r o j,
  RRedisO [] s r -> wf_op r o = true -> ref_target r o <> Some j ->
  redis_view (fst (redis_step s o)) j = redis_view s j.
Proof.
  intros s r o j H Hwf. apply (seq_frame (redis_simulates [])); [exact H|exact Hwf|apply avoids_nil].
Qed.
Print Assumptions C15_frame_redis.

Theorem C15_frame_cloud : forall mq s r o j,
  RCloud s r -> wf_op r o = true -> ref_target r o <> Some j ->
  cloud_view (fst (cloud_step mq s o)) j = cloud_view s j.
Proof.
  intros mq s r o j H Hwf. apply (seq_frame (cloud_simulates mq)); [exact H|exact Hwf|exact I].
Qed.
Print Assumptions C15_frame_cloud.

Theorem C15_frame_disk :
  forall (enc_env : envelope -> bytes) dec_env (enc_meta : meta -> bytes) dec_meta chunk,
  (forall e, dec_env (enc_env e) = Some e) -> (forall m, dec_meta (enc_meta m) = Some m) ->
  (forall e, enc_env e <> []) -> (forall m, enc_meta m <> []) -> wcfg_ok chunk ->
  forall s r o j,
  RDisk enc_env enc_meta s r -> wf_op r o = true -> tmps_ok o -> ref_target r o <> Some j ->
  disk_view dec_env dec_meta (fst (disk_step enc_env dec_env enc_meta dec_meta chunk s o)) j = disk_view dec_env dec_meta s j.
Proof.
  intros enc_env dec_env enc_meta dec_meta chunk A1 A2 A3 A4 A5 s r o j.
  apply (seq_frame (disk_simulates enc_env dec_env enc_meta dec_meta chunk A1 A2 A3 A4 A5)).
Qed.
Print Assumptions C15_frame_disk.

(* Frame under overlap: threads addressing different messages, EVERY schedule.
   Each thread is, as far as its own message and its own results go, some
   prefix of itself running alone; once it has finished it has produced exactly
   the sequential results; messages nobody addresses are untouched. *)
Theorem C15_frame_interleaved_redis : forall s0 (specs : list (N * list op)) sch,
  NoDup (map fst specs) -> Forall (fun sp => Forall (owns (fst sp)) (snd sp)) specs ->
  let out := sched rexec (th_next redis_prog) sch s0 (map (fun sp => th_start (snd sp)) specs) in
  (forall i id ops, nth_error specs i = Some (id, ops) ->
     exists n si th,
       asteps rexec (th_next redis_prog) n s0 (th_start ops) = (si, th) /\
       nth_error (snd out) i = Some th /\
       redis_view (fst out) id = redis_view si id /\
       (th_next redis_prog th = None ->
        map fst (th_done th) = ops /\ seq_run rstate rcmd rans rexec redis_prog s0 ops = (si, map snd (th_done th)))) /\
  (forall j, ~ In j (map fst specs) -> redis_view (fst out) j = redis_view s0 j).
Proof.
  exact (frame_interleaved _ _ _ _ rexec rloc rfp rexec_local redis_prog redis_view
           redis_view_loc redis_confined redis_starts).
Qed.
Print Assumptions C15_frame_interleaved_redis.

Theorem C15_frame_interleaved_cloud : forall mq s0 (specs : list (N * list op)) sch,
  NoDup (map fst specs) -> Forall (fun sp => Forall (owns (fst sp)) (snd sp)) specs ->
  let out := sched cexec (th_next (cloud_prog mq)) sch s0 (map (fun sp => th_start (snd sp)) specs) in
  (forall i id ops, nth_error specs i = Some (id, ops) ->
     exists n si th,
       asteps cexec (th_next (cloud_prog mq)) n s0 (th_start ops) = (si, th) /\
       nth_error (snd out) i = Some th /\
       cloud_view (fst out) id = cloud_view si id /\
       (th_next (cloud_prog mq) th = None ->
        map fst (th_done th) = ops /\ seq_run cstate ccmd cans cexec (cloud_prog mq) s0 ops = (si, map snd (th_done th)))) /\
  (forall j, ~ In j (map fst specs) -> cloud_view (fst out) j = cloud_view s0 j).
Proof.
  intros mq. exact (frame_interleaved _ _ _ _ cexec cloc cfp cexec_local (cloud_prog mq) cloud_view
                      cloud_view_loc (cloud_confined mq) (fun _ o _ => cloud_starts mq o)).
Qed.
Print Assumptions C15_frame_interleaved_cloud.

Theorem C15_frame_interleaved_disk :
  forall (enc_env : envelope -> bytes) dec_env (enc_meta : meta -> bytes) dec_meta chunk
         s0 (specs : list dspec) sch,
  NoDup (map (fun sp => fst (fst sp)) specs) ->
  (forall i j spi spj t, i <> j -> nth_error specs i = Some spi -> nth_error specs j = Some spj ->
                         In t (snd (fst spi)) -> ~ In t (snd (fst spj))) ->
  Forall dspec_ok specs ->
  let dprog_of := disk_prog enc_env dec_env enc_meta dec_meta chunk in
  let out := sched dexec (th_next dprog_of) sch s0 (map (fun sp => th_start (snd sp)) specs) in
  (forall i id tmps ops, nth_error specs i = Some (id, tmps, ops) ->
     exists n si th,
       asteps dexec (th_next dprog_of) n s0 (th_start ops) = (si, th) /\
       nth_error (snd out) i = Some th /\
       fget (fst out) (PEnv id) = fget si (PEnv id) /\ fget (fst out) (PMeta id) = fget si (PMeta id) /\
       disk_view dec_env dec_meta (fst out) id = disk_view dec_env dec_meta si id /\
       (th_next dprog_of th = None ->
        map fst (th_done th) = ops /\ seq_run fs dcmd dans dexec dprog_of s0 ops = (si, map snd (th_done th)))) /\
  (forall q, (forall sp, In sp specs -> dfoot (fst (fst sp)) (snd (fst sp)) q = false) -> fget (fst out) q = fget s0 q).
Proof. intros. apply frame_interleaved_disk; assumption. Qed.
Print Assumptions C15_frame_interleaved_disk.

(* load() and get() are read-only on every substrate, so threads that
   only load/get - overlapping anything, e.g. a write between its envelope and
   its meta step - are invisible to everybody else: state and the other threads
   are exactly those of the schedule without the readers' steps (to which the
   C15_frame_interleaved_* / C04 theorems apply) *)
Theorem C15_load_readonly : forall now,
  (forall s, fst (dict_step s (OLoad now)) = s) /\
  (forall s, fst (cdict_step true s (OLoad now)) = s) /\
  (forall s, fst (run rexec (redis_prog (OLoad now)) s) = s) /\
  (forall mq s, fst (run cexec (cloud_prog mq (OLoad now)) s) = s) /\
  (forall enc_env dec_env enc_meta dec_meta chunk s,
     fst (run dexec (disk_prog enc_env dec_env enc_meta dec_meta chunk (OLoad now)) s) = s).
Proof.
  intros now. split; [reflexivity|]. split; [reflexivity|]. split; [|split].
  - intros s. apply ro_prog_run. apply redis_read_ro. reflexivity.
  - intros mq s. apply ro_prog_run. apply cloud_read_ro. reflexivity.
  - intros. apply readonly_run, readonly_load.
Qed.
Print Assumptions C15_load_readonly.

Theorem C15_readers_invisible_disk :
  forall (enc_env : envelope -> bytes) dec_env (enc_meta : meta -> bytes) dec_meta chunk
         sch s (owners : list disk_thread) (reader_ops : list (list op)),
  Forall (Forall (fun o => is_read o = true)) reader_ops ->
  let dprog_of := disk_prog enc_env dec_env enc_meta dec_meta chunk in
  let own_sch := filter (fun i => Nat.ltb i (length owners)) sch in
  fst (sched dexec (th_next dprog_of) sch s (owners ++ map th_start reader_ops)) =
    fst (sched dexec (th_next dprog_of) own_sch s owners) /\
  firstn (length owners) (snd (sched dexec (th_next dprog_of) sch s (owners ++ map th_start reader_ops))) =
    snd (sched dexec (th_next dprog_of) own_sch s owners).
Proof. intros. apply (readers_invisible _ _ _ dexec dprog_of (fun o => is_read o = true)); [apply disk_read_ro|assumption]. Qed.
Print Assumptions C15_readers_invisible_disk.

Theorem C15_readers_invisible_redis : forall sch s (owners : list (thread rcmd rans)) (reader_ops : list (list op)),
  Forall (Forall (fun o => is_read o = true)) reader_ops ->
  let own_sch := filter (fun i => Nat.ltb i (length owners)) sch in
  fst (sched rexec (th_next redis_prog) sch s (owners ++ map th_start reader_ops)) =
    fst (sched rexec (th_next redis_prog) own_sch s owners) /\
  firstn (length owners) (snd (sched rexec (th_next redis_prog) sch s (owners ++ map th_start reader_ops))) =
    snd (sched rexec (th_next redis_prog) own_sch s owners).
Proof. intros sch s owners reader_ops. apply (readers_invisible _ _ _ rexec redis_prog (fun o => is_read o = true)), redis_read_ro. Qed.
Print Assumptions C15_readers_invisible_redis.

Theorem C15_readers_invisible_cloud : forall mq sch s (owners : list (thread ccmd cans)) (reader_ops : list (list op)),
  Forall (Forall (fun o => is_read o = true)) reader_ops ->
  let own_sch := filter (fun i => Nat.ltb i (length owners)) sch in
  fst (sched cexec (th_next (cloud_prog mq)) sch s (owners ++ map th_start reader_ops)) =
    fst (sched cexec (th_next (cloud_prog mq)) own_sch s owners) /\
  firstn (length owners) (snd (sched cexec (th_next (cloud_prog mq)) sch s (owners ++ map th_start reader_ops))) =
    snd (sched cexec (th_next (cloud_prog mq)) own_sch s owners).
Proof. intros mq sch s owners reader_ops. apply (readers_invisible _ _ _ cexec (cloud_prog mq) (fun o => is_read o = true)), cloud_read_ro. Qed.
Print Assumptions C15_readers_invisible_cloud.

(* Marking rounds (the per-backend round function the queue model of C01/C03 imports) *)
(* sorted(...) of a set does not depend on the order the set is iterated in *)
Theorem C15_round_set_order : forall (a b : list N) (l : list bytes), Permutation a b -> round a l = round b l.
Proof. intros a b l P. unfold round. rewrite (sort_desc_perm a b P). reflexivity. Qed.
Print Assumptions C15_round_set_order.

(* k successive rounds on DictStorage: original minus settled, order preserved *)
Theorem C03_rounds_dict : forall (settles : list (bytes -> bool)) (l : list bytes),
  rounds_inplace settles l = Some (filter (unsettled settles) l).
Proof. intros. apply rounds_inplace_spec. Qed.
Print Assumptions C03_rounds_dict.

(* the same on disk/redis/cloud after the d5/d6 fixes *)
Theorem C03_rounds_accum : forall (settles : list (bytes -> bool)) (orig : list bytes),
  rounds_accum accum_mark accum_get settles orig [] = Some (filter (unsettled settles) orig).
Proof. intros. rewrite (rounds_accum_inplace settles orig orig []); [apply rounds_inplace_spec|reflexivity]. Qed.
Print Assumptions C03_rounds_accum.

(* the shipped flat accumulation (D6) did not: [a;b;c], round 1 settles a, round 2 settles c *)
Theorem C03_rounds_flat_refuted :
  exists (settles : list (N -> bool)) (orig : list N),
    rounds_accum flat_mark flat_get settles orig [] <> Some (filter (unsettled settles) orig).
Proof. exists [N.eqb 1; N.eqb 3], [1; 2; 3]. vm_compute. discriminate. Qed.
Print Assumptions C03_rounds_flat_refuted.
