(* C10 - the pipelining client pairs every reply with the command that caused it.

   Setting (model/Client.v): `run ops (init lmtp exts0 chunks)` executes an arbitrary
   sequence of API calls of Client (lmtp = false) or LmtpClient (lmtp = true) whose
   extensions were pre-populated with exts0, on a socket that will deliver `chunks`.
   The server's script is a list of well-formed replies (any three-digit code 1xx-5xx,
   1..n lines, valid UTF-8); the byte stream is `wire script ++ extra` cut into
   arbitrary non-empty chunks.  Reply objects are numbered in creation order;
   `length (s_objs st) <= length script` says the server scripted a reply for every
   reply-owing command the client issued (object j is owed script[j]: the j-th reply
   the server sends answers the j-th reply-owing command it receives).
   PIPELINING is whatever exts0 and the scripted EHLO/LHLO replies make it. *)
From Coq Require Import String.
From Coq Require Import List NArith Bool Arith Sorting.Sorted.
From SV Require Import lib.Bytes model.Reply model.Client proof.Client_lemmas.
Import ListNotations.
Local Open Scope nat_scope.

(* Every call either returned its own new Reply object(s) or raised before anything
   was queued or sent (UnicodeEncodeError / NotImplementedError); the objects handed
   out are, in order, objects 0..n-1; the first f of them (f = n - |reply_queue|) hold
   exactly the server's replies 0..f-1 - each object its own -, the others are still
   empty and are exactly the reply_queue, in order (FIFO). *)
Theorem C10_pairing :
  forall udigit uspace script extra lmtp exts0 ops chunks st results,
  forallb wf_reply script = true ->
  Forall (fun c => c <> []) chunks ->
  concat chunks = wire script ++ extra ->
  run udigit uspace ops (init lmtp exts0 chunks) = (st, results) ->
  length (s_objs st) <= length script ->
  let n := length (s_objs st) in
  let f := n - length (s_queue st) in
  flat_map result_ids results = seq 0 n /\
  Forall result_ok results /\
  s_queue st = seq f (n - f) /\
  forall j, j < n ->
    o_r (nth j (s_objs st) dummy_obj) =
      if j <? f then filled udigit uspace (o_kind (nth j (s_objs st) dummy_obj)) (nth j script dflt)
      else unfilled (o_kind (nth j (s_objs st) dummy_obj)).
Proof.
  intros until results. intros Hw Hc Hs Hr Hl n f.
  destruct (cl_reach udigit uspace script extra (cl_wf_all_ok _ Hw) _ _ _ _ _ _ Hc Hs Hr Hl) as (I & _ & _ & _ & Hnb & _).
  destruct (Hnb (cl_wf_no_bad _ Hw)) as [Hids Hok]. repeat (split; [assumption|]).
  exact (cl_inv_read_wf _ _ _ _ _ _ Hw I).
Qed.
Print Assumptions C10_pairing.

(* What has been taken from the stream is exactly the f replies owed and read:
   everything behind them - replies to commands still pipelined, unsolicited bytes -
   is still in recv_buffer / unread on the socket; the connection was never read to EOF. *)
Theorem C10_no_overread :
  forall udigit uspace script extra lmtp exts0 ops chunks st results,
  forallb wf_reply script = true ->
  Forall (fun c => c <> []) chunks ->
  concat chunks = wire script ++ extra ->
  run udigit uspace ops (init lmtp exts0 chunks) = (st, results) ->
  length (s_objs st) <= length script ->
  s_rbuf st ++ concat (s_chunks st) =
    wire (skipn (length (s_objs st) - length (s_queue st)) script) ++ extra /\
  Forall (fun c => c <> []) (s_chunks st) /\ s_dead st = false.
Proof.
  intros until results. intros Hw Hc Hs Hr Hl.
  destruct (cl_reach udigit uspace script extra (cl_wf_all_ok _ Hw) _ _ _ _ _ _ Hc Hs Hr Hl) as (I & _).
  apply (cl_inv_read _ _ _ _ _ _ I).
Qed.
Print Assumptions C10_no_overread.

(* LMTP: after any call sequence, send_data / send_empty_data returns one new Reply
   object per recipient of the transaction whose RCPT reply (script[its object]) has
   class 2, in the order of the rcptto calls, as the consecutive new objects n, n+1, ...
   (which by C10_pairing receive the next replies of the stream in that order), and
   clears the recipient list.  Every entry of the recipient list is (address, object)
   of a call rcptto(address) that returned that object; entries are in call order. *)
Theorem C10_lmtp_pairing :
  forall udigit uspace script extra exts0 ops chunks st results o st' res,
  forallb wf_reply script = true ->
  Forall (fun c => c <> []) chunks ->
  concat chunks = wire script ++ extra ->
  run udigit uspace ops (init true exts0 chunks) = (st, results) ->
  (o = OSendEmpty \/ exists payload, o = OSendData payload) ->
  step udigit uspace o st = (st', res) ->
  length (s_objs st') <= length script ->
  let n := length (s_objs st) in
  let acc := filter (fun p => class2 (fst (nth (snd p) script dflt))) (s_rcpttos st) in
  res = RPairs (number n (map fst acc)) /\
  length (s_objs st') = n + length acc /\
  s_rcpttos st' = [] /\
  StronglySorted lt (map snd (s_rcpttos st)) /\
  Forall (fun p => from_call ops results p /\ snd p < n /\
                   o_cmd (nth (snd p) (s_objs st) dummy_obj) = bs "RCPT") (s_rcpttos st).
Proof.
  intros until res. intros Hw Hc Hs Hr Ho Hst Hl n acc.
  destruct (cl_lmtp_reach udigit uspace script extra (cl_wf_all_ok _ Hw) _ _ _ _ _ _ _ _ Hc Hs Hr Ho Hst Hl)
    as ([(Hres & Hn' & Hrc)|(_ & Hb & _)] & Hn & Hso & Hfc); [|destruct (cl_wf_no_bad _ Hw Hb)].
  rewrite (cl_accepted_wf _ n _ Hw Hn) in Hres, Hn'
    by (eapply Forall_impl; [|exact Hfc]; intros p Hp; apply Hp).
  auto.
Qed.
Print Assumptions C10_lmtp_pairing.

(* The parser fact the three theorems rest on (C17-style round trip): a reply the
   server wrote, followed by anything, delivered in any segmentation, is returned as
   such and exactly its bytes are consumed. *)
Theorem C10_reply_consumed_exactly :
  forall code lines rest buf chunks,
  code3 code -> lines <> [] -> forallb no_lf lines = true ->
  Forall (fun c => c <> []) chunks ->
  buf ++ concat chunks = emit_lines code lines ++ rest ->
  exists buf' chunks',
    recv_reply buf chunks = ROk code (join CRLF lines) buf' chunks' /\
    buf' ++ concat chunks' = rest /\ Forall (fun c => c <> []) chunks'.
Proof. intros. eapply cl_recv_reply_wire; eassumption. Qed.
Print Assumptions C10_reply_consumed_exactly.

(* The formal face of the D21 fix: a call that raises (under the same hypotheses it
   can only be UnicodeEncodeError from a non-encodable identifier/address or
   NotImplementedError) leaves the whole client state - reply_queue, send buffer,
   recipients - exactly as it was: no reply slot exists without its command. *)
Theorem C10_raise_is_noop :
  forall udigit uspace script extra lmtp exts0 ops chunks st results o st' e,
  forallb wf_reply script = true ->
  Forall (fun c => c <> []) chunks ->
  concat chunks = wire script ++ extra ->
  run udigit uspace ops (init lmtp exts0 chunks) = (st, results) ->
  step udigit uspace o st = (st', RExn e) ->
  length (s_objs st') <= length script ->
  st' = st /\ (e = XEncode \/ e = XNotImpl).
Proof.
  intros until e. intros Hw Hc Hs Hr Hst Hl.
  destruct (cl_reach_step udigit uspace script extra (cl_wf_all_ok _ Hw) _ _ _ _ _ _ _ _ _ Hc Hs Hr Hst Hl)
    as (f' & _ & Hres).
  destruct e; cbn in Hres; try contradiction; auto. destruct (cl_wf_no_bad _ Hw (proj2 Hres)).
Qed.
Print Assumptions C10_raise_is_noop.

(* Undecodable replies (ISO-8859-1 text, truncated multi-byte sequences, lone
   continuation bytes, overlongs): `script_ok` = every scripted reply is well-formed or
   well-formed-but-not-UTF-8 (`bad_utf8`). *)

(* BadReply for such a reply is raised AFTER the reply has been consumed: whatever the
   segmentation, the buffer continues exactly behind it. *)
Theorem C10_bad_reply_consumed :
  forall udigit uspace old r rest buf chunks,
  bad_utf8 r = true ->
  Forall (fun c => c <> []) chunks ->
  buf ++ concat chunks = wire1 r ++ rest ->
  exists buf' chunks',
    recv_into udigit uspace old buf chunks = FBadReply buf' chunks' /\
    buf' ++ concat chunks' = rest /\ Forall (fun c => c <> []) chunks'.
Proof. intros. eapply cl_recv_into_bad; eassumption. Qed.
Print Assumptions C10_bad_reply_consumed.

(* Pairing when the conversation goes on after a BadReply: an undecodable reply costs the
   call that was reading it a BadReply and leaves exactly its own slot (object j, script[j]
   not well-formed) empty; every other object j < f holds exactly the server's j-th reply,
   the objects handed out are increasing object numbers, the unread ones are the
   reply_queue in order, the stream continues right behind reply f-1, EOF is never read.
   (No call raises AttributeError: result_ok_gen excludes it.) *)
Theorem C10_pairing_with_bad_replies :
  forall udigit uspace script extra lmtp exts0 ops chunks st results,
  forallb script_ok script = true ->
  Forall (fun c => c <> []) chunks ->
  concat chunks = wire script ++ extra ->
  run udigit uspace ops (init lmtp exts0 chunks) = (st, results) ->
  length (s_objs st) <= length script ->
  let n := length (s_objs st) in
  let f := n - length (s_queue st) in
  StronglySorted lt (flat_map result_ids results) /\
  Forall (fun i => i < n) (flat_map result_ids results) /\
  Forall result_ok_gen results /\
  s_queue st = seq f (n - f) /\
  (forall j, j < n ->
    o_r (nth j (s_objs st) dummy_obj) =
      if (j <? f) && wf_reply (nth j script dflt)
      then filled udigit uspace (o_kind (nth j (s_objs st) dummy_obj)) (nth j script dflt)
      else unfilled (o_kind (nth j (s_objs st) dummy_obj))) /\
  s_rbuf st ++ concat (s_chunks st) = wire (skipn f script) ++ extra /\
  Forall (fun c => c <> []) (s_chunks st) /\ s_dead st = false.
Proof.
  intros until results. intros Hk Hc Hs Hr Hl n f.
  destruct (cl_reach udigit uspace script extra Hk _ _ _ _ _ _ Hc Hs Hr Hl) as (I & Hso & Hb & Hok & _).
  repeat (split; [assumption|]). exact (cl_inv_read _ _ _ _ _ _ I).
Qed.
Print Assumptions C10_pairing_with_bad_replies.

(* With such scripts a raising call is still a no-op when it raises before the wire; the
   only exception raised after the wire is the BadReply of an undecodable reply. *)
Theorem C10_raise_partial :
  forall udigit uspace script extra lmtp exts0 ops chunks st results o st' e,
  forallb script_ok script = true ->
  Forall (fun c => c <> []) chunks ->
  concat chunks = wire script ++ extra ->
  run udigit uspace ops (init lmtp exts0 chunks) = (st, results) ->
  step udigit uspace o st = (st', RExn e) ->
  length (s_objs st') <= length script ->
  (e = XEncode \/ e = XNotImpl) /\ st' = st \/
  e = XBadReply /\ (exists j, j < length script /\ wf_reply (nth j script dflt) = false).
Proof.
  intros until e. intros Hk Hc Hs Hr Hst Hl.
  destruct (cl_reach_step udigit uspace script extra Hk _ _ _ _ _ _ _ _ _ Hc Hs Hr Hst Hl)
    as (f' & _ & Hres).
  destruct e; cbn in Hres; try contradiction; [left; auto..|right; split; [reflexivity|apply Hres]].
Qed.
Print Assumptions C10_raise_partial.

(* The statement the former known finding c10:lmtp-data-after-bad-rcpt-reply refuted, true since
   fix d40 (`if rcptto_reply.code and rcptto_reply.code.startswith('2')`): LmtpClient.send_data /
   send_empty_data after ANY history and for ANY script (undecodable replies included) queue
   exactly one end-of-data slot per recipient of the transaction whose RCPT reply is a filled 2xx
   - a recipient whose RCPT reply was a BadReply holds an empty Reply and gets none -, in the order
   of the rcptto calls, as the consecutive new objects n, n+1, ..., and clear the recipient list.
   They never raise AttributeError; the only exception possible is the BadReply of an undecodable
   reply that one of their two flushes had to read (before any slot was queued: nothing changed but
   the replies read; or after: slots queued, list cleared). *)
Theorem C10_lmtp_data_never_fails_on_unanswered_rcpt :
  forall udigit uspace script extra exts0 ops chunks st results o st' res,
  forallb script_ok script = true ->
  Forall (fun c => c <> []) chunks ->
  concat chunks = wire script ++ extra ->
  run udigit uspace ops (init true exts0 chunks) = (st, results) ->
  (o = OSendEmpty \/ exists payload, o = OSendData payload) ->
  step udigit uspace o st = (st', res) ->
  length (s_objs st') <= length script ->
  let n := length (s_objs st) in
  let acc := filter (fun p => wf_reply (nth (snd p) script dflt) &&
                              class2 (fst (nth (snd p) script dflt))) (s_rcpttos st) in
  (res = RPairs (number n (map fst acc)) /\
   length (s_objs st') = n + length acc /\ s_rcpttos st' = []) \/
  (res = RExn XBadReply /\
   ((s_rcpttos st' = s_rcpttos st /\ length (s_objs st') = n) \/
    (s_rcpttos st' = [] /\ length (s_objs st') = n + length acc))).
Proof.
  intros until res. intros Hk Hc Hs Hr Ho Hst Hl n acc.
  destruct (cl_lmtp_reach udigit uspace script extra Hk _ _ _ _ _ _ _ _ Hc Hs Hr Ho Hst Hl)
    as ([H|(H1 & _ & H2)] & _); [left; exact H|right; split; assumption].
Qed.
Print Assumptions C10_lmtp_data_never_fails_on_unanswered_rcpt.
