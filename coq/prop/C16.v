(* Property C16 - queue policies conserve recipients and content.  Statements,
   each derived from the lemmas of proof/Policy_lemmas.v; model in model/Policy.v.

   Every theorem holds for EVERY re.subn oracle `subn`, every `lower`, every
   generated header text (date_of / mid_of / recv_of), every envelope and every
   chain (list of policies: any length, order, repetitions) - also chains
   containing PSelf / PKeepSplit, two policies that return their input envelope
   among their outputs.  fresh_input e n0: the four object identities of the
   input envelope are different and below the allocation counter. *)
From Coq Require Import List NArith Bool Permutation.
From SV Require Import lib.Bytes model.Policy proof.Policy_lemmas.
Import ListNotations.
Open Scope N_scope.

Section C16.
  Variable rule : Type.
  Variable subn : rule -> bytes -> bytes * N.
  Variable lower : bytes -> bytes.
  Variable date_of mid_of recv_of : env -> bytes.
  Notation run := (run_policies rule subn lower date_of mid_of recv_of).

  (* the envelopes handed to store.write carry each (rewritten) recipient of the
     original exactly once (equality of multisets), each with the original sender
     and body; results.remove(current) never raises *)
Theorem C16_conservation : forall chain n0 e, fresh_input e n0 ->
    let s := run chain n0 e in
    failed s = false
    /\ Permutation (flat_map rcpts (results s)) (map (rw_chain rule subn chain) (rcpts e))
    /\ Forall (fun x => sender x = sender e /\ body x = body e) (results s).
  Proof.
    intros chain n0 e Hf. destruct (run_spec rule subn lower date_of mid_of recv_of chain n0 e Hf) as (HF & _ & HP & HE).
    split; [exact HF|]. split; [exact HP|]. eapply Forall_impl; [|exact HE]. intros x [Hs _]. exact Hs.
  Qed.

  (* the Envelope objects, recipient lists, header objects and client dicts of all
     resulting envelopes are pairwise different objects *)
Theorem C16_no_sharing : forall chain n0 e, fresh_input e n0 ->
    NoDup (flat_map ids (results (run chain n0 e))).
  Proof. intros chain n0 e Hf. apply (run_spec rule subn lower date_of mid_of recv_of chain n0 e Hf). Qed.

  (* every resulting envelope keeps the original header list whole and in order;
     in front of it one Received per AddReceivedHeader of the chain; behind it
     Date / Message-Id exactly when absent (case-insensitively) at that point *)
Theorem C16_headers : forall chain n0 e x, fresh_input e n0 ->
    In x (results (run chain n0 e)) ->
    exists pre suf, hdr x = pre ++ hdr e ++ suf
      /\ map fst pre = repeat n_received (n_received_of rule chain)
      /\ map fst suf = appended rule chain (map fst (hdr e)).
  Proof.
    intros chain n0 e x Hf Hx. apply hdr_chain_shape.
    exact (proj2 (run_elem rule subn lower date_of mid_of recv_of chain n0 e x Hf Hx)).
  Qed.

  (* a new Received header is placed first: AddReceivedHeader puts its field on top
     of the whole header list (not on top of the existing Received block), and for
     every chain containing it - split as c1 ++ PReceived :: c2 at its LAST
     occurrence - every written envelope starts with the field that this last
     application put on top of h1, the header list as c1 had left it (earlier new
     Received fields, then ALL original fields whole and in their order wherever
     their own Received fields are, then what c1 appended); c2 only appends *)
Theorem C16_received_placed_first : forall chain n0 e x, fresh_input e n0 ->
    In PReceived chain -> In x (results (run chain n0 e)) ->
    (forall n e0, apply rule subn lower date_of mid_of recv_of PReceived n e0
                  = (set_hdr e0 ((n_received, recv_of e0) :: hdr e0), None, n))
    /\ exists c1 c2 v h1 suf,
      chain = c1 ++ PReceived :: c2 /\ existsb (is_received rule) c2 = false
      /\ hdr x = (n_received, v) :: h1 ++ suf
      /\ hdr_chain_ok rule c1 (hdr e) h1
      /\ map fst suf = appended rule c2 (n_received :: map fst h1)
      /\ exists pre1 suf1, h1 = pre1 ++ hdr e ++ suf1
           /\ map fst pre1 = repeat n_received (n_received_of rule c1)
           /\ map fst suf1 = appended rule c1 (map fst (hdr e)).
  Proof.
    intros chain n0 e x Hf Hin Hx. split; [apply received_apply|].
    pose proof (proj2 (run_elem rule subn lower date_of mid_of recv_of chain n0 e x Hf Hx)) as Hc.
    destruct (received_on_top rule chain _ _ Hin Hc) as (c1 & c2 & v & h1 & suf & EC & H2 & E & Hc1 & Es).
    exists c1, c2, v, h1, suf. repeat (split; [assumption|]). exact (hdr_chain_shape rule c1 _ _ Hc1).
  Qed.

  (* Forward: the first rule with a non-empty result and changes > 0 wins ... *)
Theorem C16_forward_first_match : forall pre ru post r,
    Forall (fun q => hits rule subn q r = false) pre -> hits rule subn ru r = true ->
    fwd_rcpt rule subn (pre ++ ru :: post) r = fst (subn ru r).
  Proof. intros pre ru post r Hp Hh. rewrite (fwd_skip rule subn pre _ r Hp), fwd_cons, Hh. reflexivity. Qed.

  (* ... and a recipient matching no rule is left unchanged (in the same list object) *)
Theorem C16_forward_unmatched : forall rules r n e,
    (Forall (fun q => hits rule subn q r = false) rules -> fwd_rcpt rule subn rules r = r)
    /\ apply rule subn lower date_of mid_of recv_of (PForward rules) n e
       = (set_rcpts e (map (fwd_rcpt rule subn rules) (rcpts e)) (rid e), None, n).
  Proof.
    intros. split; [|apply forward_apply].
    intros H. rewrite <- (app_nil_r rules). exact (fwd_skip rule subn rules [] r H).
  Qed.

  (* "matched" is re.subn's substitution count, not "the text changed": a rule that
     matches the recipient (changes > 0) and reproduces the same text - an exemption
     in front of a catch-all - wins and stops the scan; whatever rules follow
     (also ones that would rewrite r), the result is r, as if they were not there *)
Theorem C16_forward_identity_match_stops : forall pre ru post r ch,
    Forall (fun q => hits rule subn q r = false) pre -> subn ru r = (r, ch) -> r <> [] -> 0 < ch ->
    fwd_rcpt rule subn (pre ++ ru :: post) r = r
    /\ fwd_rcpt rule subn (pre ++ ru :: post) r = fwd_rcpt rule subn (pre ++ [ru]) r.
  Proof.
    intros pre ru post r ch Hp Hs Hr Hc. pose proof (hits_intro rule subn ru r r ch Hs Hr Hc) as Hh.
    rewrite !(C16_forward_first_match pre ru _ r Hp Hh), Hs. split; reflexivity.
  Qed.

  (* AddDateHeader / AddMessageIdHeader look at the presence of the field NAME
     (case-insensitively, anywhere in the block), not at its value: a field with
     ANY value v - in particular the empty one - makes the policy a no-op *)
Theorem C16_present_header_suppresses : forall nm v h1 h2 n e,
    hdr e = h1 ++ (nm, v) :: h2 ->
    (ieq nm n_date = true -> apply rule subn lower date_of mid_of recv_of PDate n e = (e, None, n))
    /\ (ieq nm n_mid = true -> apply rule subn lower date_of mid_of recv_of PMid n e = (e, None, n)).
  Proof.
    intros nm v h1 h2 n e E. split; intros H; cbn [apply]; rewrite E, (has_header_intro _ nm v h1 h2 H); reflexivity.
  Qed.

  (* added only when absent, for whole chains: in every written envelope the Date
     (Message-Id) fields are exactly the original ones, values untouched, when the
     original has one (present-but-empty included) ... *)
Theorem C16_date_mid_kept_when_present : forall chain n0 e x, fresh_input e n0 ->
    In x (results (run chain n0 e)) ->
    (has_header n_date (hdr e) = true -> named n_date (hdr x) = named n_date (hdr e))
    /\ (has_header n_mid (hdr e) = true -> named n_mid (hdr x) = named n_mid (hdr e)).
  Proof.
    intros chain n0 e x Hf Hx. pose proof (proj2 (run_elem rule subn lower date_of mid_of recv_of chain n0 e x Hf Hx)) as Hc.
    split; [exact (named_kept rule _ _ (date_adds rule) _ _ _ Hc)|exact (named_kept rule _ _ (mid_adds rule) _ _ _ Hc)].
  Qed.

  (* ... and when it has none there is exactly one iff the policy is in the chain,
     however often and wherever *)
Theorem C16_date_mid_added_once_when_absent : forall chain n0 e x, fresh_input e n0 ->
    In x (results (run chain n0 e)) ->
    (has_header n_date (hdr e) = false ->
       map fst (named n_date (hdr x)) = if existsb (is_date rule) chain then [n_date] else [])
    /\ (has_header n_mid (hdr e) = false ->
       map fst (named n_mid (hdr x)) = if existsb (is_mid rule) chain then [n_mid] else []).
  Proof.
    intros chain n0 e x Hf Hx. pose proof (proj2 (run_elem rule subn lower date_of mid_of recv_of chain n0 e x Hf Hx)) as Hc.
    split; [exact (named_added rule _ _ (date_adds rule) _ _ _ Hc)|exact (named_added rule _ _ (mid_adds rule) _ _ _ Hc)].
  Qed.

  (* the policies are stateless: one Queue / one list of policy objects handling any
     sequence of messages (same or different recipient lists, in any order) gives
     for each message exactly the outcome - envelopes in order, with sender,
     recipients, headers, body; results.remove never failing - that a new chain gives
     for that message alone, whatever came before it; and no two envelopes of the
     same or of different messages share an Envelope / recipient-list / header /
     client object.  (Generated header texts depend on the contents of the envelope,
     not on which objects hold them: the three premises.)  Hence conservation, the
     header rules and the forwarding rules above hold for every message of every
     sequence. *)
Theorem C16_policies_stateless : forall chain n ms,
    (forall d e, date_of (shift_env d e) = date_of e) ->
    (forall d e, mid_of (shift_env d e) = mid_of e) ->
    (forall d e, recv_of (shift_env d e) = recv_of e) ->
    map outcome (run_messages rule subn lower date_of mid_of recv_of chain n ms)
    = map (fun m => outcome (run chain 4 (mk_input 0 m))) ms
    /\ NoDup (flat_map ids (flat_map results (run_messages rule subn lower date_of mid_of recv_of chain n ms))).
  Proof.
    intros chain n ms Hd Hm Hr. split.
    - exact (stateless rule subn lower date_of mid_of recv_of Hd Hm Hr chain ms n).
    - rewrite messages_as_configured. apply configured_nodup.
  Qed.

  (* configuration changes between messages (Forward.add_mapping on a policy in
     service, ...): a sequence of messages each with the chain as configured at its
     moment - Forward's rule list is whatever has been added so far.  Every message
     comes out as a NEW chain with exactly that configuration gives it alone (no
     rule list, compiled or otherwise, remembered from an earlier moment), its
     recipients are the originals rewritten by ITS rule sets, and no objects are
     shared; C16_policies_stateless is the case of an unchanging configuration *)
Theorem C16_configuration_snapshot : forall n cms,
    (forall d e, date_of (shift_env d e) = date_of e) ->
    (forall d e, mid_of (shift_env d e) = mid_of e) ->
    (forall d e, recv_of (shift_env d e) = recv_of e) ->
    let ss := run_configured rule subn lower date_of mid_of recv_of n cms in
    map outcome ss = map (fun cm => outcome (run (fst cm) 4 (mk_input 0 (snd cm)))) cms
    /\ Forall2 (fun cm s => failed s = false
                  /\ Permutation (flat_map rcpts (results s)) (map (rw_chain rule subn (fst cm)) (m_rcpts (snd cm)))
                  /\ Forall (fun x => sender x = m_sender (snd cm) /\ body x = m_body (snd cm)) (results s)) cms ss
    /\ NoDup (flat_map ids (flat_map results ss))
    /\ forall chain ms, run_messages rule subn lower date_of mid_of recv_of chain n ms
                        = run_configured rule subn lower date_of mid_of recv_of n (map (fun m => (chain, m)) ms).
  Proof.
    intros n cms Hd Hm Hr ss. split; [|split; [|split]].
    - exact (stateless_configured rule subn lower date_of mid_of recv_of Hd Hm Hr cms n).
    - apply configured_each. intros chain m k. apply C16_conservation, mk_input_fresh.
    - apply configured_nodup.
    - intros chain ms. exact (messages_as_configured rule subn lower date_of mid_of recv_of chain ms n).
  Qed.

  (* policies returning their input among their outputs: returning [envelope]
     changes nothing; PKeepSplit really returns the input object (all theorems
     above cover chains with these policies) *)
Theorem C16_input_among_outputs : forall chain n0 e,
    run (PSelf :: chain) n0 e = run chain n0 e
    /\ (forall n r1 r2 rest, rcpts e = r1 :: r2 :: rest ->
          exists e' l n', apply rule subn lower date_of mid_of recv_of PKeepSplit n e = (e', Some l, n')
                          /\ In e' l /\ eid e' = eid e /\ rcpts e' = [r1]).
  Proof.
    intros. split; [apply self_is_noop_at_head|].
    intros. eapply keepsplit_returns_input; eassumption.
  Qed.
End C16.

Print Assumptions C16_conservation.
Print Assumptions C16_no_sharing.
Print Assumptions C16_headers.
Print Assumptions C16_received_placed_first.
Print Assumptions C16_forward_first_match.
Print Assumptions C16_forward_unmatched.
Print Assumptions C16_forward_identity_match_stops.
Print Assumptions C16_present_header_suppresses.
Print Assumptions C16_date_mid_kept_when_present.
Print Assumptions C16_date_mid_added_once_when_absent.
Print Assumptions C16_policies_stateless.
Print Assumptions C16_configuration_snapshot.
Print Assumptions C16_input_among_outputs.
