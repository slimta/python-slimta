(* C01 - accepted mail is never lost: every recipient reaches a final disposition. *)
From Coq Require Import List NArith.
From SV Require Import model.Queue proof.Queue_base proof.Queue_T proof.Queue_L proof.Queue_examples.
Import ListNotations.
Open Scope N_scope.

(* Safety core, for every schedule that respects the relay contract (per-recipient results
   cover every recipient) and fair storage announcements: every accepted recipient is
   delivered, or failed for good with a bounce exactly when its message has a sender, or is
   still outstanding in storage. *)
Theorem C01_no_loss : forall es i r sf, ok_run es init ->
  let s := run es init in
  In (i, r, sf) (g_acc s) ->
  In (i, r) (g_deliv s) \/ In (i, r, sf) (g_fail s) \/ exists m, st_get (s_store s) i = Some m /\ In r (m_rcpts m).
Proof. intros es i r sf Hok s. exact (Linv_no_loss s i r sf (reach_L es Hok)). Qed.
Print Assumptions C01_no_loss.

(* ... and while it is outstanding the message is in the timetable or being worked on
   (no assumption needed), so it keeps being retried *)
Theorem C01_outstanding_is_tracked : forall es i,
  let s := run es init in
  st_get (s_store s) i <> None ->
  In i (qids_of (s_queued s)) \/ In i (all_ids (s_tasks s)).
Proof. exact not_forgotten. Qed.
Print Assumptions C01_outstanding_is_tracked.

(* A message is removed from storage only when every one of its recipients has a final
   disposition. *)
Theorem C01_removed_only_final : forall es i t rest, ok_run es init ->
  let s := run es init in
  take_task (is_rm i) (s_tasks s) = Some (t, rest) ->
  forall r sf, In (i, r, sf) (g_acc s) -> In (i, r) (g_deliv s) \/ In (i, r, sf) (g_fail s).
Proof. intros es i t rest Hok s. exact (Linv_removal_settled s i t rest (reach_L es Hok)). Qed.
Print Assumptions C01_removed_only_final.

(* the hypotheses are satisfiable by a non-trivial schedule (two partial-delivery rounds) *)
Theorem C01_example_schedule_ok : ok_run ex_sched init /\
  let s := run ex_sched init in
  g_deliv s = [(0, 2); (0, 1)] /\ g_fail s = [(0, 3, true)] /\ s_store s = [].
Proof. split; [exact ex_sched_ok|]. destruct ex_sched_result as [A [B [C _]]]. auto. Qed.
Print Assumptions C01_example_schedule_ok.

(* the contract is needed: a per-recipient result that is neither a success nor a relay error
   loses that recipient (what the pipe relay did before D7 was fixed) *)
Theorem C01_contract_needed_refuted :
  let s := run junk_sched init in
  In (0, 2, true) (g_acc s) /\ ~ In (0, 2) (g_deliv s) /\ (forall b, ~ In (0, 2, b) (g_fail s)) /\ st_get (s_store s) 0 = None.
Proof. vm_compute. split; [right; left; reflexivity|]. split; [intros [H|[]]; discriminate|]. split; [intros b []|reflexivity]. Qed.
Print Assumptions C01_contract_needed_refuted.
