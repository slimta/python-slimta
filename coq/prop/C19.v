(* C19 - Relay connection pools stay within bounds and strand no request.

   Model: model/Pool.v (BlockingDeque; RelayPool as a transition system over lib/Sched.v whose
   events are chosen by an arbitrary schedule; SmtpRelayClient._run/_deliver/_rset at the level of
   the commands written per message).  [run es] executes ANY list of events (disabled events are
   no-ops), so every theorem below holds for all interleavings of attempt() calls, client start-up,
   polling, idle expiry, completion, connection failure, server-initiated timeouts (requeue) and
   client exit, with any number of attempts and clients, any pool size and idle timeout.
   Statements, each derived in a few lines from the lemmas of proof/Pool_lemmas.v. *)
From Coq Require Import List NArith Permutation.
From SV Require Import lib.Sched model.Pool proof.Pool_lemmas.
Import ListNotations.
Open Scope N_scope.

(* never more clients (hence connections) than pool_size, in every reachable state; pool_size 0 /
   None means unbounded and is exempt *)
Theorem C19_bound : forall cfg (es : list pevent),
    1 <= size cfg -> nlen (pool (run (S := pool_sys cfg) es)) <= size cfg.
Proof.
  intros cfg es H. apply (inv_bound _ _ (proj1 (inv_all_schedules cfg es))).
  intros E. rewrite E in H. exact (H eq_refl).
Qed.
Print Assumptions C19_bound.

(* a completed result is the result of the attempt's own envelope, and no attempt is answered
   twice - for clients that keep the contract (no EvAbandon) *)
Theorem C19_own_result : forall cfg (es : list pevent),
    Forall contract_ev es ->
    let s := run (S := pool_sys cfg) es in
    (forall r, In r (results s) ->
       In (mkReq (res_slot r) (res_env r)) (attempts s) /\
       forall a, In a (attempts s) -> r_slot a = res_slot r -> r_env a = res_env r) /\
    NoDup (map res_slot (results s)).
Proof.
  intros cfg es F s. destruct (acct_all_schedules cfg es F) as [I A].
  exact (answered_own _ _ _ _ _ (inv_slots _ _ (proj1 I)) A).
Qed.
Print Assumptions C19_own_result.

(* every attempt is in exactly one place: waiting in the queue, held by one client, or answered *)
Theorem C19_every_attempt_accounted : forall cfg (es : list pevent),
    Forall contract_ev es ->
    let s := run (S := pool_sys cfg) es in
    Permutation (attempts s) (items (q s) ++ inflight (pool s) ++ map res_req (results s)) /\
    NoDup (map r_slot (attempts s)).
Proof.
  intros cfg es F. destruct (acct_all_schedules cfg es F) as [I A].
  split; [exact A | exact (proj1 (inv_slots _ _ (proj1 I)))].
Qed.
Print Assumptions C19_every_attempt_accounted.

(* nothing is stranded: in every quiescent state (no semaphore wake-up, idle timer or link
   callback pending) a waiting request implies a non-empty pool all of whose clients are alive and
   at work (about to poll, or delivering another request); no client sits in poll(), none is dead.
   Holds whatever the clients do (even if they break the contract). *)
Theorem C19_no_strand : forall cfg (es : list pevent),
    let s := run (S := pool_sys cfg) es in
    quiescent (S := pool_sys cfg) internal_ev s -> items (q s) <> [] ->
    pool s <> [] /\
    forall cl, In cl (pool s) -> c_st cl = Busy \/ exists r, c_st cl = Delivering r.
Proof. intros cfg es. apply no_strand, inv_all_schedules. Qed.
Print Assumptions C19_no_strand.

(* at every moment, not only at quiescence, a waiting request has a client in the pool *)
Theorem C19_pending_has_client : forall cfg (es : list pevent),
    let s := run (S := pool_sys cfg) es in items (q s) <> [] -> pool s <> [].
Proof. intros cfg es. exact (proj2 (inv_all_schedules cfg es)). Qed.
Print Assumptions C19_pending_has_client.

(* ... and the system is never stuck with a waiting request: some client event is enabled *)
Theorem C19_never_stuck : forall cfg (es : list pevent),
    let s := run (S := pool_sys cfg) es in
    items (q s) <> [] ->
    exists e, (match e with EvAttempt _ | EvAdvance _ => False | _ => True end) /\
              step (pool_sys cfg) s e <> None.
Proof.
  intros cfg es s Hq. pose proof (inv_all_schedules cfg es) as I. fold s in I.
  destruct (pool s) as [|cl p] eqn:Ep; [contradiction (proj2 I Hq)|].
  apply (never_stuck cfg s cl I Hq). rewrite Ep. left. reflexivity.
Qed.
Print Assumptions C19_never_stuck.

(* the executable quiescence test used by the correspondence check is the definition *)
Theorem C19_quiescent_decidable : forall cfg (es : list pevent),
    let s := run (S := pool_sys cfg) es in
    quiescent_b s = true <-> quiescent (S := pool_sys cfg) internal_ev s.
Proof.
  intros cfg es s. split; [apply quiescent_b_sound|].
  apply quiescent_b_complete. apply (inv_ids _ _ (proj1 (inv_all_schedules cfg es))).
Qed.
Print Assumptions C19_quiescent_decidable.

(* semaphore count = deque length: for the deque alone under any sequence of its methods (no call
   hits IndexError or blocks after removing), and for the pool's queue in every reachable state
   (so a woken popleft() never finds the deque empty) *)
Theorem C19_deque_sema :
    (forall l0 ops,
        cnt (fst (dq_run l0 ops)) = nlen (items (fst (dq_run l0 ops))) /\
        forallb (fun r => negb (out_is_bad r)) (snd (dq_run l0 ops)) = true) /\
    (forall cfg (es : list pevent),
        let s := run (S := pool_sys cfg) es in
        cnt (q s) = nlen (items (q s)) /\ crashed s = false).
Proof.
  split.
  - intros l0 ops. apply (dq_run_ok_gen ops (dq_new l0, [])). split; reflexivity.
  - intros cfg es. destruct (inv_all_schedules cfg es) as [I _]. exact (conj (inv_sema _ _ I) (inv_nocrash _ _ I)).
Qed.
Print Assumptions C19_deque_sema.

(* SMTP client, any server behaviour, any number of messages on the connection, with and without
   PIPELINING: a reused connection carries one message at a time *)
Theorem C19_one_message_at_a_time : forall pipe reuse cs (polls : list poll_item),
    one_at_a_time None (run_wire pipe reuse cs polls) = true.
Proof. intros. apply (wend_sound _ None false), run_wire_ok. Qed.
Print Assumptions C19_one_message_at_a_time.

(* ... and after a failed transaction RSET is written before the next MAIL - for every failure
   kind: encoding, MAIL / all recipients / DATA / content rejected (reported with set_exception,
   WResult _ false) and all recipients rejected in mixed 4xx/5xx classes (_set_failure's
   rcpt_errors branch: reported as a dict of per-recipient errors, WResultRcpts); see
   smtp_mixed_rejection_example *)
Theorem C19_reset_after_failure : forall pipe reuse cs (polls : list poll_item),
    reset_after_failure false (run_wire pipe reuse cs polls) = true.
Proof. intros. apply (wend_sound _ None false), run_wire_ok. Qed.
Print Assumptions C19_reset_after_failure.

(* the SMTP client keeps the pool contract, so C19_own_result / C19_every_attempt_accounted apply
   to pools of SMTP clients *)
Theorem C19_smtp_client_keeps_contract : forall pipe reuse cs (polls : list poll_item) c,
    follows_contract HBusy (run_acts pipe reuse cs polls) = true /\
    Forall contract_ev (flat_map (evs_of_act c) (run_acts pipe reuse cs polls)).
Proof. intros. split; [apply smtp_client_contract | apply acts_contract]. Qed.
Print Assumptions C19_smtp_client_keeps_contract.

(* the contract is necessary: one client that drops its request leaves an attempt unanswered in
   a quiescent, empty pool *)
Theorem C19_contract_is_needed :
  exists es, let s := run (S := pool_sys (mkCfg 1 None)) es in
    quiescent_b s = true /\ attempts s = [mkReq 0 7] /\
    items (q s) = [] /\ inflight (pool s) = [] /\ results s = [].
Proof.
  exists [EvAttempt 7; EvEnterPoll 0; EvPoll 0; EvAbandon 0; EvGiveUp 0; EvExit 0].
  vm_compute. repeat split.
Qed.
Print Assumptions C19_contract_is_needed.

(* HTTP client (repaired: it always completes the pending result), any server behaviour, any
   number of requests: exchanges on its connection never overlap, and an exchange that broke off
   (refused, timed out, hung up) is followed by close() before the next request is written *)
Theorem C19_http_one_exchange_then_reset : forall reuse (polls : list hpoll_item),
    http_clean HClean (hrun_wire reuse polls) = true.
Proof. intros. apply http_loop_ok. Qed.
Print Assumptions C19_http_one_exchange_then_reset.

(* ... and it keeps the pool contract *)
Theorem C19_http_client_keeps_contract : forall reuse (polls : list hpoll_item) c,
    follows_contract HBusy (hrun_acts reuse polls) = true /\
    Forall contract_ev (flat_map (evs_of_act c) (hrun_acts reuse polls)).
Proof. intros. split; [apply http_loop_ok | apply acts_contract]. Qed.
Print Assumptions C19_http_client_keeps_contract.

(* the reply carried by a "connection lost" result (SmtpRelayClient._get_error_reply over the
   per-connection Client.last_error): it was issued during the SAME message's exchange, or it is the
   client's synthetic 421 - for every sequence of replies read on a connection in which nothing
   follows a failed read, an error reply is followed by a read of the same message (RSET after a
   failed transaction, cf. C19_reset_after_failure) and a 421 is followed by the loss of the
   connection.  (The replies inside all other results are the Reply objects of the message's own
   commands by construction of _deliver.) *)
Theorem C19_lost_result_reply_is_own : forall tr,
    wf_reads tr = true ->
    forall m src, In (m, src) (lost_sources error_source None tr) -> src = None \/ src = Some m.
Proof. intros tr Hwf. apply (lost_sources_own_gen tr None Hwf). intros k H. discriminate. Qed.
Print Assumptions C19_lost_result_reply_is_own.

(* ... and the 421 test is needed: passing on ANY 4xx last_error hands message 1 the reply that
   deferred a recipient of message 0 *)
Theorem C19_only_a_421_may_be_passed_on :
  exists tr, wf_reads tr = true /\
             lost_sources error_source_any4xx None tr = [(1, Some 0)] /\
             lost_sources error_source None tr = [(1, None)].
Proof.
  exists [mkRd 0 RdOk; mkRd 0 (RdErr E4xx); mkRd 0 RdOk; mkRd 0 RdOk; mkRd 0 RdOk; mkRd 1 RdLost].
  vm_compute. repeat split.
Qed.
Print Assumptions C19_only_a_421_may_be_passed_on.

(* C19_bound rests on the check-then-add sections of RelayPool being atomic (EvAttempt and EvExit
   are single events of [pstep]): were add_client() - the client's constructor - allowed to yield
   between `len(pool) < pool_size` and `pool.add(client)`, two callers could both pass the check;
   with the two halves as separate events a pool of size 1 reaches 2 clients.  On the code the
   assumption is checked at run time (no greenlet switch inside _check_idle / _remove_client, none
   between _check_idle and queue.append). *)
Theorem C19_bound_needs_atomic_check_and_add :
  exists es, s_pool (run (S := split_sys 1) es) = 2.
Proof. exists [SCheck; SCheck; SAdd; SAdd]. vm_compute. reflexivity. Qed.
Print Assumptions C19_bound_needs_atomic_check_and_add.
