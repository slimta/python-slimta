(* C09 -- Server behaviour does not depend on how client bytes are segmented or pipelined.
   Statements, each derived from the lemmas of proof/ServerStream_lemmas.v; model in model/ServerStream.v
   (IO.recv_line, DataReader.recv with the size limit AFTER the repair of D13, see
   /verif/fixes/d13-size-limit-drain.diff, and Server.handle's loop) on top of C07's command
   machine model/Server.v (`step`) and C05's reader pieces model/Data.v.

   Vocabulary:
     (buf, chunks)          io.recv_buffer and the values socket.recv() is going to return
                            (non-empty; an exhausted list is end of file)
     recv_line buf chunks   IO.recv_line();  line_spec s = first line of the byte string s
     dr_recv_lim m b c      DataReader(io, m).recv();  read_spec_lim m s = batch specification:
                            None (no end-of-data line: ConnectionLost) | Some (None, rest)
                            (MessageTooBig) | Some (Some data, rest);  the size of a message is
                            the number of stream bytes up to and including its end-of-data line
     run_server_stream mx ctx vb envs buf chunks
                            the whole session of Server.handle + SmtpSession with SIZE limit mx
                            (no AUTH, no TLS), banner verdict vb, application decisions envs
                            (one entry per command line read): (items given to C07's `step`,
                            one `out` = replies + callback events per line, how it ended)
     run_server_batch       the same loop over ONE byte string with the batch specifications
     observable r           (reply codes in order, callback trace with arguments and message
                            content, how the session ended)
   Quantification: every limit, every verdict assignment, every byte stream, every cut of it
   into a pre-buffered part and recv() results.  No bound on lengths or on the number of
   commands; the recursion bound of run_server_stream is never reached (C09_fuel_sufficient). *)
From Coq Require Import List NArith Bool.
From SV Require Import lib.Bytes model.Data model.Server model.ServerStream
                       proof.Data_lemmas proof.ServerStream_lemmas.
Import ListNotations.
Open Scope N_scope.

(* IO.recv_line over (buffer, pieces) = the first line of the concatenation, every other byte
   left unread; and it stops reading from the socket with the piece that completes the line. *)
Theorem C09_recv_line_inc_eq_batch : forall (buf : bytes) (chunks : list bytes),
  Forall (fun c => c <> []) chunks ->
  line_outcome (recv_line buf chunks) = line_spec (buf ++ concat chunks)
  /\ forall l rb rest, recv_line buf chunks = LLine l rb rest ->
       exists used, chunks = used ++ rest
         /\ line_spec (buf ++ concat used) = Some (l, rb)
         /\ (used = [] \/ line_spec (buf ++ concat (removelast used)) = None).
Proof.
  intros buf chunks NE. split; [exact (recv_line_batch chunks buf NE)|].
  intros l rb rest. apply recv_line_consumption.
Qed.
Print Assumptions C09_recv_line_inc_eq_batch.

(* DataReader.recv with a size limit over (buffer, pieces) = the batch specification of the
   concatenation: same data / MessageTooBig / ConnectionLost, same unread bytes.  In particular
   whether the limit trips does not depend on the pieces, and a too big message is consumed up
   to and including its end-of-data line, no further.  (C05_incremental_is_batch extended.) *)
Theorem C09_reader_inc_eq_batch : forall (m : option N) (buf : bytes) (chunks : list bytes),
  Forall (fun c => c <> []) chunks ->
  read_outcome (dr_recv_lim m buf chunks) = read_spec_lim m (buf ++ concat chunks)
  /\ forall rb rest, left_of (dr_recv_lim m buf chunks) = Some (rb, rest) ->
       exists used, chunks = used ++ rest
         /\ rest_of (buf ++ concat used) = Some rb
         /\ (used = [] \/ rest_of (buf ++ concat (removelast used)) = None).
Proof.
  intros m buf chunks NE. split; [exact (dr_recv_lim_batch m buf chunks NE)|].
  intros rb rest. apply dr_recv_lim_consumption.
Qed.
Print Assumptions C09_reader_inc_eq_batch.

(* without a limit the reader is exactly C05's *)
Theorem C09_reader_no_limit_is_C05 : forall (buf : bytes) (chunks : list bytes),
  dr_recv_lim None buf chunks =
  match dr_recv None buf chunks with
  | ROk d rb sock => DOk d rb sock
  | RLost => DLost
  | RTooBig sock => DLost
  end.
Proof. intros buf chunks. apply recv_loop_lim_none. Qed.
Print Assumptions C09_reader_no_limit_is_C05.

(* what the batch specification of the reader returns for a well-formed body: the lines in
   front of the first end-of-data line, undotted - or MessageTooBig when those lines and the
   end-of-data line are more than the limit - and every byte behind it *)
Theorem C09_read_spec_lim_complete : forall (mx : option N) (ls : list bytes) (e rest : bytes),
  forallb nolf ls = true -> nolf e = true -> no_eod ls = true -> is_eod (e ++ [10]) = true ->
  read_spec_lim mx (unraw ls ++ (e ++ [10]) ++ rest) =
  Some (if Data.too_big mx (N.of_nat (length (unraw ls ++ e ++ [10]))) then None else Some (content ls), rest).
Proof. exact read_spec_lim_complete. Qed.
Print Assumptions C09_read_spec_lim_complete.

(* The server: incremental = batch.  The items handed to the command machine, every reply,
   every callback with its arguments and the message content, and the way the session ends
   are those of the one-string server on buf ++ concat chunks. *)
Theorem C09_server_inc_eq_batch : forall mx ctx vb envs (buf : bytes) (chunks : list bytes),
  Forall (fun c => c <> []) chunks ->
  run_server_stream mx ctx vb envs buf chunks = run_server_batch mx ctx vb envs (buf ++ concat chunks).
Proof. exact @run_server_stream_batch. Qed.
Print Assumptions C09_server_inc_eq_batch.

(* THE PROPERTY: two segmentations of the same client byte stream (byte by byte, command by
   command, one pipelined burst, any part of it already buffered) give the same replies, the
   same callback trace with the same arguments and message content, the same end. *)
Theorem C09_server_segmentation_independent : forall mx ctx vb envs (buf buf' : bytes) (chunks chunks' : list bytes),
  Forall (fun c => c <> []) chunks -> Forall (fun c => c <> []) chunks' ->
  buf ++ concat chunks = buf' ++ concat chunks' ->
  run_server_stream mx ctx vb envs buf chunks = run_server_stream mx ctx vb envs buf' chunks'
  /\ observable (run_server_stream mx ctx vb envs buf chunks) = observable (run_server_stream mx ctx vb envs buf' chunks').
Proof.
  intros mx ctx vb envs buf buf' chunks chunks' H H' E.
  rewrite (run_server_stream_batch H), (run_server_stream_batch H'), E. split; reflexivity.
Qed.
Print Assumptions C09_server_segmentation_independent.

(* the same from any session state and with any recursion bound (the induction itself) *)
Theorem C09_loop_inc_eq_batch : forall fuel st envs (buf : bytes) (chunks : list bytes),
  Forall (fun c => c <> []) chunks ->
  run_stream fuel st envs buf chunks = run_batch fuel st envs (buf ++ concat chunks).
Proof. exact @run_stream_batch. Qed.
Print Assumptions C09_loop_inc_eq_batch.

(* the recursion bound is never what ends a session *)
Theorem C09_fuel_sufficient : forall mx ctx vb envs (buf : bytes) (chunks : list bytes),
  Forall (fun c => c <> []) chunks ->
  snd (run_server_stream mx ctx vb envs buf chunks) <> SFuel.
Proof.
  intros mx ctx vb envs buf chunks NE. rewrite (run_server_stream_batch NE). apply run_server_batch_fuel.
Qed.
Print Assumptions C09_fuel_sufficient.

(* Message content is never executed as commands.  From ANY session state in which the DATA
   line dl is accepted (354), for ANY body ls (lines that are not the end-of-data line - they
   may look like commands, start with dots, be empty; ls may be empty; the body may be over
   the limit), end-of-data line e, following bytes rest, and any segmentation: the lines
   handed to the command parser are dl and then those of `rest` - never a line of ls or e. *)
Theorem C09_content_not_executed : forall fuel st en envs (dl : bytes) (ls : list bytes) (e rest buf : bytes) (chunks : list bytes),
  Forall (fun c => c <> []) chunks ->
  buf ++ concat chunks = dl ++ 10 :: unraw ls ++ (e ++ [10]) ++ rest ->
  nolf dl = true -> wf_body ls e ->
  reads_data st (mk_item en (parse_line (strip_cr dl)) [] 0) = true ->
  exists it st' o, step st it = (st', o) /\ it_line it = parse_line (strip_cr dl) /\
    map it_line (fst (fst (run_stream (S fuel) st (en :: envs) buf chunks))) =
    parse_line (strip_cr dl) ::
    match o_fin o with
    | Continue => map it_line (fst (fst (run_batch fuel st' envs rest)))
    | _ => []
    end.
Proof.
  intros fuel st en envs dl ls e rest buf chunks NE E Hdl WF RD.
  exists (data_item st en dl ls e), (fst (step st (data_item st en dl ls e))), (snd (step st (data_item st en dl ls e))).
  rewrite (data_transaction NE E Hdl WF RD), after_item_emit, emit_lines, data_item_line.
  split; [apply surjective_pairing|]. split; reflexivity.
Qed.
Print Assumptions C09_content_not_executed.

(* Commands are never swallowed into content.  Same situation: the content given to the
   HAVE_DATA callback is exactly the undotted lines ls (no byte of `rest`), or nothing and the
   too-big flag when ls and e exceed the limit; and the server then goes on (unless that reply
   ended the session) exactly as a server that is handed all of `rest` would. *)
Theorem C09_commands_not_swallowed : forall fuel st en envs (dl : bytes) (ls : list bytes) (e rest buf : bytes) (chunks : list bytes),
  Forall (fun c => c <> []) chunks ->
  buf ++ concat chunks = dl ++ 10 :: unraw ls ++ (e ++ [10]) ++ rest ->
  nolf dl = true -> wf_body ls e ->
  reads_data st (mk_item en (parse_line (strip_cr dl)) [] 0) = true ->
  exists it, run_stream (S fuel) st (en :: envs) buf chunks =
             after_item (S:=bytes) it st (fun st' => run_stream fuel st' envs rest []) /\
    (if Data.too_big (x_size (ex st)) (N.of_nat (length (unraw ls ++ e ++ [10])))
     then it_data it = [] /\ Server.too_big (ex st) (it_wire it) = true
     else it_data it = content ls /\ Server.too_big (ex st) (it_wire it) = false).
Proof.
  intros fuel st en envs dl ls e rest buf chunks NE E Hdl WF RD.
  exists (data_item st en dl ls e). split.
  - rewrite (data_transaction NE E Hdl WF RD). apply emit_ext. intros st'. symmetry. apply run_stream_nil.
  - unfold data_item. destruct (Data.too_big _ _) eqn:TB; (split; [reflexivity|]);
      [exact (over_limit_too_big _ _ TB)|apply zero_not_too_big].
Qed.
Print Assumptions C09_commands_not_swallowed.

(* STARTTLS without a handshake leaves the stream alone.  A STARTTLS line that a
   handlers.STARTTLS hook refuses (any verdict but 220 that does not close the session): for
   ANY segmentation - the following commands glued to the STARTTLS line in one recv() or
   arriving later - the server answers the hook's code and goes on, in the same state, exactly
   as a server handed all of `rest`.  (The arms "not offered" 500, "argument" 501, "before
   EHLO" 503 are arms of C07's `step`, which never sees the stream, and are covered by
   C09_server_inc_eq_batch like every command; only STARTTLS answered 220 is exempt: C08.) *)
Theorem C09_starttls_refused_keeps_stream : forall fuel st en envs (l rest : bytes) o (buf : bytes) (chunks : list bytes),
  Forall (fun c => c <> []) chunks -> buf ++ concat chunks = l ++ 10 :: rest ->
  nolf l = true ->
  starttls_hook st (mk_item en (parse_line (strip_cr l)) [] 0) = true ->
  hook_out (n_tls en) = Some o -> o_fin o = Continue ->
  run_stream (S fuel) st (en :: envs) buf chunks =
  (let '(its, os, f) := run_stream fuel st envs rest [] in
   (mk_item en (parse_line (strip_cr l)) [] 0 :: its, o :: os, f)).
Proof.
  intros fuel st en envs l rest o buf chunks NE E Hl SH HO OF.
  rewrite (run_stream_step NE E Hl), (cmd_refused _ _ rest SH HO), run_stream_nil.
  cbn [emit]. rewrite OF. reflexivity.
Qed.
Print Assumptions C09_starttls_refused_keeps_stream.

(* the front end's decision to call the reader is the command machine's: exactly then the
   machine answers 354 and calls the DATA handler first; otherwise it ignores the message
   fields of the item *)
Theorem C09_reader_called_iff_354 : forall st e l d w,
  (reads_data st (mk_item e l d w) = true ->
     exists rs es, o_replies (snd (step st (mk_item e l d w))) = 354 :: rs
                /\ o_events (snd (step st (mk_item e l d w))) = EvCall KData [] [] (Some 354) :: es)
  /\ (reads_data st (mk_item e l [] 0) = false -> step st (mk_item e l d w) = step st (mk_item e l [] 0)).
Proof.
  intros st e l d w. unfold step. rewrite (handle_command_data st e l d w). split; intros H.
  - change (reads_data st (mk_item e l [] 0) = true) in H. rewrite H. apply (get_message_data_starts st _ [354] [_]).
  - rewrite H. reflexivity.
Qed.
Print Assumptions C09_reader_called_iff_354.

(* The stream front end refines C07 (handlers object without a STARTTLS hook, like the real
   SmtpSession: no_hook): the items it produced from the bytes, given to C07's
   run_session, yield exactly the outputs of the stream server (for a session that was not cut
   off inside a message) - so every C07 theorem holds of the server under any segmentation;
   e.g. the callback trace is in protocol order. *)
Theorem C09_stream_refines_session : forall mx ctx vb envs (buf : bytes) (chunks : list bytes) its os f,
  no_hook envs ->
  run_server_stream mx ctx vb envs buf chunks = (its, os, f) -> complete f ->
  exists stf, run_session (stream_cfg mx ctx) vb its = (os, stf, fin_of f).
Proof. exact @stream_refines_session. Qed.
Print Assumptions C09_stream_refines_session.

Theorem C09_stream_callbacks_in_order : forall mx ctx vb envs (buf : bytes) (chunks : list bytes),
  no_hook envs ->
  complete (snd (run_server_stream mx ctx vb envs buf chunks)) ->
  accepts (events_of (snd (fst (run_server_stream mx ctx vb envs buf chunks)))) = true.
Proof.
  intros mx ctx vb envs buf chunks NH C. rewrite (stream_events NH C). apply Server_lemmas.callbacks_in_order.
Qed.
Print Assumptions C09_stream_callbacks_in_order.
