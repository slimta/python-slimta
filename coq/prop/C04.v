(* C04 - a crash at any point never loses an acknowledged message (disk queue).
   The statements, each derived in a few lines from proof/Crash_lemmas.v
   (crash_safe, crash_metas_ok, crash_ok_acked) and Disk_lemmas.v (dump_steps).

   File system model and DiskStorage programs: model/Disk.v.  Process death =
   the file system after ANY schedule `sch` (every prefix of every interleaving
   of the threads is a schedule).  A thread = all operations on one message, in
   order; different threads address different messages and are handed different
   temp names.  `recover_get` / `recover_load` = get() / load() of a fresh
   DiskStorage on the surviving directories.  The pickle codec is any pair of
   functions that round-trips and never yields the empty string.
   (C04_queue_resumes - the fresh Queue's timetable - needs the queue model and
   is stated with C12/C01.) *)
From Coq Require Import List NArith Lia.
From SV Require Import model.Store.
From SV Require Import proof.Disk_lemmas proof.Store_lemmas proof.Crash_lemmas.
Import ListNotations.
Open Scope N_scope.

Section C04.
  Variable enc_env : envelope -> bytes.
  Variable dec_env : bytes -> option envelope.
  Variable enc_meta : meta -> bytes.
  Variable dec_meta : bytes -> option meta.
  Variable chunk : wcfg.
  Hypothesis dec_enc_env : forall e, dec_env (enc_env e) = Some e.
  Hypothesis dec_enc_meta : forall m, dec_meta (enc_meta m) = Some m.
  Hypothesis enc_env_nonempty : forall e, enc_env e <> [].
  Hypothesis enc_meta_nonempty : forall m, enc_meta m <> [].
  Hypothesis chunk_pos : wcfg_ok chunk.

  Notation dprog_of := (disk_prog enc_env dec_env enc_meta dec_meta chunk).
  Notation crashed sch s0 specs := (sched dexec (th_next dprog_of) sch s0 (map (fun sp : dspec => th_start (snd sp)) specs)).

  (* For EVERY set of threads, EVERY schedule and EVERY prefix: each thread's
     completed operations returned what the reference store returns, its meta
     file is absent or complete, and what a fresh instance sees of its message
     is the reference entry after the completed operations - or, while an
     update is in flight, possibly already the entry after that update
     (attempts: last committed or +1; delivered marks: committed or committed +
     requested; timestamp: old or new).  Files nobody addresses are untouched. *)
  Theorem C04_crash_safe : forall s0 (specs : list dspec) sch,
    NoDup (map (fun sp => fst (fst sp)) specs) ->
    (forall i j spi spj t, i <> j -> nth_error specs i = Some spi -> nth_error specs j = Some spj ->
                           In t (snd (fst spi)) -> ~ In t (snd (fst spj))) ->
    Forall (cspec_ok s0) specs ->
    let out := crashed sch s0 specs in
    (forall i id tmps ops, nth_error specs i = Some (id, tmps, ops) ->
       exists th, nth_error (snd out) i = Some th /\ crash_ok dec_env enc_meta dec_meta id (fst out) th) /\
    (forall q, (forall sp, In sp specs -> dfoot (fst (fst sp)) (snd (fst sp)) q = false) -> fget (fst out) q = fget s0 q).
  Proof. intros. apply crash_safe; assumption. Qed.

  (* the property's headline *)
  Theorem C04_acked_not_lost : forall s0 (specs : list dspec) sch,
    NoDup (map (fun sp => fst (fst sp)) specs) ->
    (forall i j spi spj t, i <> j -> nth_error specs i = Some spi -> nth_error specs j = Some spj ->
                           In t (snd (fst spi)) -> ~ In t (snd (fst spj))) ->
    Forall (cspec_ok s0) specs -> metas_ok dec_meta s0 ->
    let out := crashed sch s0 specs in
    forall i id tmps ops th, nth_error specs i = Some (id, tmps, ops) -> nth_error (snd out) i = Some th ->
    forall pre post e ts c t,
      th_done th = pre ++ (OWrite e ts c t, RId id) :: post ->          (* write() returned the id *)
      forallb (fun o => negb (is_remove o)) (map fst post) = true ->   (* no remove() completed since *)
      (forall o p, th_cur th = Some (o, p) -> is_remove o = false) ->  (* none in flight *)
      exists en, disk_view dec_env dec_meta (fst out) id = Some en /\
                 e_sender (en_env en) = e_sender e /\ e_content (en_env en) = e_content e /\
                 recover_get dec_env dec_meta (fst out) id = RGot (en_env en) (en_att en) /\
                 exists l, recover_load enc_env dec_env enc_meta dec_meta chunk (fst out) = RLoad l /\ In (en_ts en, id) l.
  Proof.
    intros s0 specs sch Hnd Htd Hok Hm0 out i id tmps ops th Ei Eth.
    destruct (crash_safe enc_env dec_env enc_meta dec_meta chunk dec_enc_env dec_enc_meta enc_env_nonempty
                enc_meta_nonempty chunk_pos s0 specs sch Hnd Htd Hok) as [H1 _].
    destruct (H1 i id tmps ops Ei) as (th' & Eth' & Hc).
    assert (E : Some th = Some th') by (rewrite <- Eth; exact Eth'). inversion E; subst th'.
    eapply crash_ok_acked; try eassumption. apply crash_metas_ok; assumption.
  Qed.

  (* load() of the fresh instance never raises in a reachable crash state and
     lists exactly the ids that have an env file and a meta file *)
  Theorem C04_load_never_blocked : forall s0 (specs : list dspec) sch,
    NoDup (map (fun sp => fst (fst sp)) specs) ->
    (forall i j spi spj t, i <> j -> nth_error specs i = Some spi -> nth_error specs j = Some spj ->
                           In t (snd (fst spi)) -> ~ In t (snd (fst spj))) ->
    Forall (cspec_ok s0) specs -> metas_ok dec_meta s0 ->
    let s := fst (crashed sch s0 specs) in
    exists l, recover_load enc_env dec_env enc_meta dec_meta chunk s = RLoad l /\ NoDup l /\
              forall ts id, In (ts, id) l <->
                fget s (PEnv id) <> None /\ exists b m, fget s (PMeta id) = Some b /\ dec_meta b = Some m /\ m_ts m = ts.
  Proof. intros. apply recover_load_spec. apply crash_metas_ok; assumption. Qed.

  (* a missing meta file, a stray temp file, a half-removed pair - whatever
     happens to files other than the two of message id - never changes what is
     recovered for id *)
  Theorem C04_partial_files_harmless : forall s s' id,
    fget s' (PEnv id) = fget s (PEnv id) -> fget s' (PMeta id) = fget s (PMeta id) ->
    recover_get dec_env dec_meta s' id = recover_get dec_env dec_meta s id /\
    disk_view dec_env dec_meta s' id = disk_view dec_env dec_meta s id /\
    (metas_ok dec_meta s -> metas_ok dec_meta s' ->
     forall ts, (exists l, recover_load enc_env dec_env enc_meta dec_meta chunk s' = RLoad l /\ In (ts, id) l) <->
                (exists l, recover_load enc_env dec_env enc_meta dec_meta chunk s = RLoad l /\ In (ts, id) l)).
  Proof.
    intros s s' id Ee Em. split; [apply get_run_ext; assumption|]. split; [apply disk_view_ext; assumption|].
    intros Hok Hok' ts. rewrite !recover_load_In by assumption. rewrite Ee, Em. reflexivity.
  Qed.

  (* temp -> rename atomicity of AioFile.dump: stopped after any number of its
     commands, everything but the temp file and the target is untouched and the
     target holds what it held before or the complete data (then the temp name
     is gone); at the end it holds the complete data *)
  Theorem C04_dump_atomic : forall data p t r s n,
    data <> [] -> p <> PTmp t -> fget s (PTmp t) = None ->
    let st := asteps dexec prog_next n s (dump chunk data p t (Ret r)) in
    (forall q, q <> PTmp t -> q <> p -> fget (fst st) q = fget s q) /\
    (fget (fst st) p = fget s p \/ (fget (fst st) p = Some data /\ fget (fst st) (PTmp t) = None)) /\
    match snd st with
    | Ret _ => fget (fst st) p = Some data /\ fget (fst st) (PTmp t) = None
    | Do _ _ => True
    end.
  Proof.
    intros data p t r s n Hd Hp Hf st.
    destruct (dump_steps chunk data p t r s n (proj1 chunk_pos) Hd Hp Hf) as (H1 & H2 & H3). fold st in H1, H2, H3.
    split; [exact H1|]. split; [exact H2|]. destruct (snd st); [|exact I].
    destruct H3 as [(_ & H3)|(_ & _ & off & m & E)]; [exact H3|destruct (proj2 chunk_pos t off m E)].
  Qed.

  (* Abort with unwinding: at any point every operation in flight gets an
     exception instead of its next command and its except/finally clauses run
     (cleanup_of: the `finally: os.close(fd)` of AioFile.dump).  The file system
     afterwards is the one a kill at that point leaves, so every statement
     above about `fst (crashed sch s0 specs)` holds for the aborted state too. *)
  Theorem C04_abort_equals_crash : forall s0 (specs : list dspec) sch,
    let out := crashed sch s0 specs in
    abort_all (fst out) (snd out) = fst out /\
    (forall th c, In th (snd out) -> In c (th_cleanup th) -> exists t, c = CClose t).
  Proof.
    intros s0 specs sch out. split; [apply abort_equals_crash|].
    intros th c _. apply th_cleanup_closes.
  Qed.
End C04.

(* Short writes and write errors.  The theorems above hold for every behaviour
   of the asynchronous writes that never reports an error (wcfg_ok: an
   aio_write may store fewer bytes than asked, any number of times - the loop
   continues at offset + ret).  And whatever the writes do, errors included:
   AioFile.dump stopped after any number of commands has left everything but
   its temp file and its target alone, the target holds what it held before or
   the complete data, and if dump ends with the IOError the target is untouched
   - a truncated file is never published. *)
Theorem C04_dump_complete_despite_short_writes : forall (cfg : wcfg) data p t r s n,
  w_chunk cfg <> O -> data <> [] -> p <> PTmp t -> fget s (PTmp t) = None ->
  let st := asteps dexec prog_next n s (dump cfg data p t (Ret r)) in
  (forall q, q <> PTmp t -> q <> p -> fget (fst st) q = fget s q) /\
  (fget (fst st) p = fget s p \/ (fget (fst st) p = Some data /\ fget (fst st) (PTmp t) = None)) /\
  match snd st with
  | Ret x => (x = r /\ fget (fst st) p = Some data /\ fget (fst st) (PTmp t) = None) \/
             (x = REmptyWrite /\ fget (fst st) p = fget s p)
  | Do _ _ => True
  end.
Proof.
  intros cfg data p t r s n Hc Hd Hp Hf st.
  destruct (dump_steps cfg data p t r s n Hc Hd Hp Hf) as (H1 & H2 & H3). fold st in H1, H2, H3.
  split; [exact H1|]. split; [exact H2|]. destruct (snd st); [|exact I].
  destruct H3 as [H3|(Hx & Hp' & _)]; [left; exact H3|right; split; assumption].
Qed.
Print Assumptions C04_dump_complete_despite_short_writes.

Print Assumptions C04_crash_safe.
Print Assumptions C04_acked_not_lost.
Print Assumptions C04_load_never_blocked.
Print Assumptions C04_partial_files_harmless.
Print Assumptions C04_dump_atomic.
Print Assumptions C04_abort_equals_crash.

(* the hypotheses are satisfiable: the executable number codec, two concrete threads *)
Theorem C04_numcodec_instance : forall sch,
  let specs : list dspec :=
    [(1, [1; 2; 3], [OWrite (mkEnv [97] [[98]; [99]] [100; 101]) 5 [1] [1; 2]; OIncr 1 [3]; ODeliv 1 [0] [1]]);
     (2, [4; 5], [OWrite (mkEnv [] [[98]] [102]) 6 [2] [4; 5]; OSetTs 2 9 [4]; ORemove 2])] in
  let cfg := mkW 4 (fun t off n => Some (Nat.div2 (S n))) in      (* every write of >= 2 bytes is short *)
  let out := sched dexec (th_next (disk_prog nc_enc_env nc_dec_env nc_enc_meta nc_dec_meta cfg)) sch []
                   (map (fun sp : dspec => th_start (snd sp)) specs) in
  exists l, recover_load nc_enc_env nc_dec_env nc_enc_meta nc_dec_meta cfg (fst out) = RLoad l.
Proof.
  intros sch specs cfg out.
  assert (Hnd : NoDup (map (fun sp : dspec => fst (fst sp)) specs)).
  { cbn. repeat constructor; cbn; intuition discriminate. }
  assert (Htd : forall i j (spi spj : dspec) t, i <> j -> nth_error specs i = Some spi -> nth_error specs j = Some spj ->
                                 In t (snd (fst spi)) -> ~ In t (snd (fst spj))).
  { intros i j spi spj t Hne Hi Hj Ht Ht'.
    destruct i as [|[|i]]; destruct j as [|[|j]]; cbn in Hi, Hj; try congruence;
      try (destruct i; discriminate); try (destruct j; discriminate);
      inversion Hi; inversion Hj; subst; cbn in Ht, Ht'; intuition (subst; discriminate). }
  assert (Hok : Forall (cspec_ok []) specs).
  { constructor; [|constructor; [|constructor]]; unfold cspec_ok; (split; [reflexivity|]); (split; [reflexivity|]);
      (split; [intros; reflexivity|]); (split; [vm_compute; reflexivity|]);
      repeat (apply Forall_cons;
              [split; [cbn; reflexivity|split; [intros t Ht; cbn in Ht |- *; tauto|cbn; first [lia|exact I]]]|]);
      apply Forall_nil. }
  assert (Hcfg : wcfg_ok cfg) by (split; [discriminate|intros t off n; discriminate]).
  destruct (C04_load_never_blocked nc_enc_env nc_dec_env nc_enc_meta nc_dec_meta cfg nc_dec_enc_env nc_dec_enc_meta
              nc_enc_env_nonempty nc_enc_meta_nonempty Hcfg [] specs sch Hnd Htd Hok) as (l & El & _).
  { intros id b E. discriminate. }
  exists l. exact El.
Qed.
Print Assumptions C04_numcodec_instance.
