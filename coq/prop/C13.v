(* C13 - Failed mail yields exactly one bounce to the sender and bounces never loop.
   Each theorem follows in a few lines from the general lemmas of proof/Bounce_lemmas.v;
   model in model/Bounce.v. *)
From Coq Require Import List NArith Permutation.
From SV Require Import lib.Bytes model.Reply model.Bounce proof.Bounce_lemmas.
Import ListNotations.
Open Scope N_scope.

(* Queue._split_by_reply, for ALL lists of (recipient, failure reply): the
   groups are a partition of the failed recipients by reply equality
   (Reply.__eq__ = equal (code, message)), one group per distinct reply,
   recipients in their original order, groups in order of first appearance. *)
Theorem C13_groups_partition : forall fails : list (text * freply),
  let gs := split_by_reply fails in
  (forall r l, In (r, l) gs -> l = with_reply r fails /\ l <> []) /\
  NoDup (gkeys gs) /\
  (forall rc r, In (rc, r) fails -> exists r0 l, In (r0, l) gs /\ freply_eqb r r0 = true) /\
  map fst gs = firsts (map snd fails) /\
  Permutation (map fst fails) (concat (map snd gs)).
Proof.
  intros fails gs. split; [apply split_exact|]. split; [apply split_nodup|]. split; [apply split_cover|].
  split; [apply split_firsts|apply split_perm].
Qed.
Print Assumptions C13_groups_partition.

(* Which bounces one failed attempt creates (sender non-empty): exactly one per
   group of permanently failed recipients and - when backoff gives up - one
   per group of transiently failed recipients, with the retry marker. *)
Theorem C13_dispatch_bounces : forall udigit uspace e o bo,
  e_sender e <> [] ->
  bounces_of (dispatch udigit uspace e o bo) = spec_bounces udigit uspace e o bo.
Proof.
  intros udigit uspace e o bo Hs. rewrite bounces_dispatch, is_nil_false by exact Hs. reflexivity.
Qed.
Print Assumptions C13_dispatch_bounces.

(* Bounce(envelope, reply[, headers_only]) with the default templates. *)
Theorem C13_bounce_shape : forall e r ho u b,
  bounce_new default_hp default_fp e r ho u = Some b ->
  b_sender b = [] /\ b_rcpts b = [e_sender e] /\
  exists sb cb m mb di pre,
    enc_utf8 (e_sender e) = Some sb /\ enc_utf8 (r_code (fr r)) = Some cb /\
    msg_opt r = Some m /\ enc_utf8 m = Some mb /\ delivery_info e r = Some di /\
    b_hdr b ++ pre = top_header sb (boundary_of u) /\
    b_msg b = pre ++
      text_part (boundary_of u) (join rcpt_join (map enc_xmlref (e_rcpts e))) cb mb di (ctype_of ho) ++
      e_hdr e ++ (if ho then [] else e_body e) ++ closing (boundary_of u) /\
    (no_lf (e_sender e) = true -> no_lf u = true -> pre = []).
Proof.
  intros e r ho u b H. destruct (bounce_new_encoded _ _ _ _ _ H) as (sb & cb & m & mb & di & E).
  destruct (bounce_new_spec _ _ ho u _ _ _ _ _ E) as (b' & pre & Hb & Hs & Hr & Hrest).
  rewrite H in Hb. injection Hb as <-. destruct E as (Es & Ec & Em & Emb & Ed).
  split; [exact Hs|]. split; [exact Hr|]. exists sb, cb, m, mb, di, pre. auto 6.
Qed.
Print Assumptions C13_bounce_shape.

(* D24, made explicit: a reply whose message is None never yields a bounce,
   whatever the templates. *)
Theorem C13_none_message_no_bounce : forall hp fp e r ho u,
  fr_none r = true -> bounce_new hp fp e r ho u = None.
Proof. exact none_message_no_bounce. Qed.
Print Assumptions C13_none_message_no_bounce.

(* The null-sender guard: no outcome of an attempt of a message without sender
   spawns a bounce. *)
Theorem C13_no_sender_no_bounce : forall udigit uspace e o bo,
  e_sender e = [] -> bounces_of (dispatch udigit uspace e o bo) = [].
Proof. intros udigit uspace e o bo Hs. rewrite bounces_dispatch, Hs. reflexivity. Qed.
Print Assumptions C13_no_sender_no_bounce.

(* Over any run (any list of failure events on any messages, any outcomes,
   backoff answers, enqueue failures): every message beyond the originals is a
   bounce (null sender) whose parent is an original with a sender; hence
   #messages = #originals + #bounces of originals, and a bounce is never
   bounced. *)
Theorem C13_no_loop : forall udigit uspace c origs evs,
  factory_null (c_factory c) ->
  exists bs, msgs (run_events udigit uspace c origs evs) = map orig_msg origs ++ bs /\
             Forall (bounce_of_original origs) bs.
Proof. intros udigit uspace c origs evs H. exact (no_loop udigit uspace c origs H evs). Qed.
Print Assumptions C13_no_loop.

(* Messages come into existence only through queue.enqueue, and every bounce
   is enqueued on the configured bounce queue. *)
Theorem C13_via_enqueue : forall udigit uspace c origs evs,
  let st := run_events udigit uspace c origs evs in
  msgs st = enq_ok (trace st) /\
  (forall q e p ok, In (TEnqueue q e (Some p) ok) (trace st) -> q = c_sepq c).
Proof. intros udigit uspace c origs evs. exact (via_enqueue udigit uspace c origs evs). Qed.
Print Assumptions C13_via_enqueue.

(* The relay may report per-recipient results as a mapping in any key order
   (Relay.attempt promises none).  Permuting the mapping does not change
   whether _handle_partial_relay raises, and the groups built from the
   transient and from the permanent failures are the same up to the order of
   the groups and of the recipients inside a group: same number of groups,
   every group has a counterpart with an equal reply and the same recipients. *)
Theorem C13_groups_invariant_under_mapping_order : forall rcpts items items' dl tf pf,
  Permutation items items' ->
  classify rcpts items [] [] [] = Some (dl, tf, pf) ->
  exists dl' tf' pf',
    classify rcpts items' [] [] [] = Some (dl', tf', pf') /\
    groups_equiv (split_by_reply tf) (split_by_reply tf') /\
    groups_equiv (split_by_reply pf) (split_by_reply pf').
Proof.
  intros rcpts items items' dl tf pf HP Hc.
  destruct (classify_perm _ _ _ _ _ _ HP Hc) as [dl' [tf' [pf' [E [Ht Hp]]]]].
  exists dl', tf', pf'. auto using groups_invariant.
Qed.
Print Assumptions C13_groups_invariant_under_mapping_order.

(* Totality of the rendering: for EVERY reply text, sender and client name /
   address that are Unicode text (any characters, 1- to 4-byte in UTF-8; the
   only exclusion is a lone surrogate, which Python cannot encode either), a
   str message (D24 excluded) and an ASCII code, the bounce IS built, is
   addressed to the original sender and quotes code and reply text, UTF-8
   encoded, in front of the embedded original. *)
Theorem C13_bounce_built_for_every_reply_text : forall e r ho u,
  env_texts_ok e -> reply_texts_ok r ->
  exists b pre di,
    bounce_new default_hp default_fp e r ho u = Some b /\
    b_sender b = [] /\ b_rcpts b = [e_sender e] /\
    b_msg b = pre ++
      text_part (boundary_of u) (join rcpt_join (map enc_xmlref (e_rcpts e)))
                (utf8_enc (r_code (fr r))) (utf8_enc (get_message (fr r))) di (ctype_of ho) ++
      e_hdr e ++ (if ho then [] else e_body e) ++ closing (boundary_of u).
Proof.
  intros e r ho u He Hr. destruct (encoded_total e r He Hr) as [di E].
  destruct (bounce_new_spec _ _ ho u _ _ _ _ _ E) as (b & pre & Hb & Hs & Hrc & _ & Hm & _).
  exists b, pre, di. auto.
Qed.
Print Assumptions C13_bounce_built_for_every_reply_text.
