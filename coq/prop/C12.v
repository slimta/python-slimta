(* C12 - a queued message is attempted when due, never early, and never forgotten.
   The model is model/Queue.v (transition system of slimta.queue.Queue at yield-point granularity; a
   schedule = list of events, so "forall es" quantifies over all interleavings, relay outcome
   histories, backoff answers and clock behaviours).  Each theorem is the instance, at the states
   reachable from [init] or from a restart, of a lemma about any state that satisfies an invariant of
   proof/Queue_T.v (tracking), Queue_W.v (scheduler), Queue_E.v (never early) or Queue_L.v (fair runs). *)
From Coq Require Import List NArith.
From SV Require Import model.QueuePools proof.QueuePools_lemmas.
From SV Require Import model.Queue proof.Queue_base proof.Queue_T proof.Queue_W proof.Queue_E proof.Queue_L.
Import ListNotations.
Open Scope N_scope.

(* Never forgotten: in EVERY reachable state (any schedule, no assumption on the environment)
   every stored message is in the timetable or has a greenlet working on it: its enqueue() is
   in progress, a delivery attempt or its retry bookkeeping is in progress, a dispatched
   read of it is pending, or its removal is pending. *)
Theorem C12_not_forgotten : forall es i,
  let s := run es init in
  st_get (s_store s) i <> None ->
  In i (qids_of (s_queued s)) \/ In i (all_ids (s_tasks s)).
Proof. exact not_forgotten. Qed.
Print Assumptions C12_not_forgotten.

(* ... and with fair storage announcements and the relay contract: a stored message nobody is
   working on is in the timetable (scheduled). *)
Theorem C12_idle_message_is_scheduled : forall es i, ok_run es init ->
  let s := run es init in
  st_get (s_store s) i <> None -> ~ In i (all_ids (s_tasks s)) -> In i (qids_of (s_queued s)).
Proof. intros es i Hok s. exact (Linv_idle_queued s i (reach_L es Hok)). Qed.
Print Assumptions C12_idle_message_is_scheduled.

(* Never early: every attempt caused by a timetable entry started at a clock value at or
   after that entry's due time. *)
Theorem C12_never_early : forall es a due,
  In a (g_atts (run es init)) -> a_cause a = CTimer due -> due <= a_now a.
Proof. intros es a due. exact (Einv_never_early _ a due (reach_E es)). Qed.
Print Assumptions C12_never_early.

(* the due time of a re-queued message is the clock value when backoff answered plus its answer *)
Theorem C12_retry_time_from_backoff : forall s i snd rcpts dl w l1 l2,
  s_tasks s = l1 ++ TRetry1 i snd rcpts dl :: l2 -> (forall t, In t l1 -> is_retry i t = false) ->
  st_get (s_store s) i <> None ->
  In (TRetry2 i rcpts dl (s_clock s + w)) (s_tasks (step s (EStep i (Some w)))).
Proof.
  intros s i snd rcpts dl w l1 l2 E Hl1 Hst.
  rewrite (retry_backoff_step s i snd rcpts dl w (l1 ++ l2)); [apply in_elt| |exact Hst].
  rewrite E. apply take_task_first; [exact Hl1|apply N.eqb_refl].
Qed.
Print Assumptions C12_retry_time_from_backoff.

(* Attempted when due, part 1 (no lost wake-up): whenever an entry is due the scheduler loop
   is running, already notified, or its wait has expired (EWakeup is enabled). *)
Theorem C12_due_wakes_scheduler : forall es ts i,
  let s := run es init in
  In (ts, i) (s_queued s) -> ts <= s_clock s ->
  match s_sched s with
  | SWait None => False
  | SWait (Some t) => t <= s_clock s
  | _ => True
  end.
Proof. intros es ts i. exact (Winv_due_wakes _ ts i (reach_W es)). Qed.
Print Assumptions C12_due_wakes_scheduler.

(* part 2: one iteration of the running scheduler dispatches every due entry *)
Theorem C12_tick_dispatches_due : forall es ts i,
  let s := run es init in
  s_sched s = SRun -> In (ts, i) (s_queued s) -> ts <= s_clock s ->
  let s' := step s ETick in
  ~ In (ts, i) (s_queued s') /\ mem i (s_active s') = true.
Proof. intros es ts i s. exact (tick_dispatches s ts i (proj1 (reach_W es))). Qed.
Print Assumptions C12_tick_dispatches_due.

(* the timetable stays sorted, which is what makes the scheduler's "due prefix" complete *)
Theorem C12_timetable_sorted : forall es, sorted (s_queued (run es init)).
Proof. intro es. exact (proj1 (reach_W es)). Qed.
Print Assumptions C12_timetable_sorted.

(* flush() is one atomic step (it does not wait for the scheduler loop) that empties the
   timetable and dispatches every waiting message at once *)
Theorem C12_flush_attempts_all : forall s,
  let s' := step s EFlush in
  s_queued s' = [] /\ s_qids s' = [] /\ forall e, In e (s_queued s) -> mem (snd e) (s_active s') = true.
Proof.
  intros s s'. subst s'. rewrite step_flush. split; [reflexivity|]. split; [reflexivity|].
  intros e He. apply dispatch_all_marks. right. exact (in_map snd _ _ He).
Qed.
Print Assumptions C12_flush_attempts_all.

(* a queue started over a non-empty storage (e.g. after a crash, C04): once the start-up load has
   announced the stored messages, every one of them is in the timetable and the invariant behind
   C12_not_forgotten holds, so it holds for every continuation of the restarted queue *)
Theorem C12_restart_resumes : forall st nx, (forall i, st_get st i <> None -> i < nx) ->
  let s := run (load_events st) (start st nx) in
  Tinv s /\ s_store s = st /\ forall i, st_get st i <> None -> In i (qids_of (s_queued s)).
Proof. intros st nx H. exact (restart_resumes_at st nx 0 H). Qed.
Print Assumptions C12_restart_resumes.

Theorem C12_not_forgotten_after_restart : forall st nx es i, (forall j, st_get st j <> None -> j < nx) ->
  let s := run es (run (load_events st) (start st nx)) in
  st_get (s_store s) i <> None ->
  In i (qids_of (s_queued s)) \/ In i (all_ids (s_tasks s)).
Proof.
  intros st nx es i H s. destruct (restart_resumes_at st nx 0 H) as [T _].
  exact (t_tracked s (run_T es _ T) i).
Qed.
Print Assumptions C12_not_forgotten_after_restart.


(* Bounded store / relay pools (model/QueuePools.v: who holds which slot, who waits for which).
   The queue model above has unbounded pools.  With bounded pools the property FAILS on the unchanged
   code (known finding c12:bounded-pools-deadlock, D10): the schedule below is reachable in
   Queue(store_pool=2, relay_pool=1) over a storage with wait() and ends in a state in which the
   _dequeue of message 1 holds the last store slot and waits for a relay slot while the _attempt of
   message 0 holds the only relay slot and waits for a store slot; no event is enabled any more, in
   any continuation: neither message is ever retried.  The harness drives the real Queue through this
   schedule on every run and compares the pools' free counts with the model step by step. *)
Theorem C12_bounded_pools_deadlock_refuted :
  let s := prun d10_sched d10_start in
  stuck s = true /\ ptasks s = [PWaitStore; PAttWantS 0%nat; PDeqWantR 1%nat] /\
  free_s s = Some 0%nat /\ free_r s = Some 0%nat /\ forall es, prun es s = s.
Proof. exact d10_deadlock. Qed.
Print Assumptions C12_bounded_pools_deadlock_refuted.

(* ... and it cannot happen with unbounded pools (the configuration the theorems above are about):
   whatever work is pending, some greenlet can move, after every history of events and new work *)
Theorem C12_unbounded_pools_never_stuck : forall os waits,
  stuck (pruns os (pinit None None waits)) = false.
Proof.
  intros os waits. apply unbounded_never_stuck; [apply pruns_free_s_none|apply pruns_free_r_none]; destruct waits; reflexivity.
Qed.
Print Assumptions C12_unbounded_pools_never_stuck.

(* nor with an unbounded relay pool and at least two store slots (one is taken by _wait_store) *)
Theorem C12_relay_unbounded_never_stuck : forall cs os waits, (2 <= cs)%nat ->
  stuck (pruns os (pinit (Some cs) None waits)) = false.
Proof.
  intros cs os waits H. apply (relay_unbounded_never_stuck cs 0%nat); [exact H| |apply pruns_free_r_none; reflexivity].
  apply pruns_inv, pinit_inv; [intros _; exact (PeanoNat.Nat.lt_le_incl _ _ H)|exact I].
Qed.
Print Assumptions C12_relay_unbounded_never_stuck.

(* a stuck state always has a full pool that somebody holding a slot of the other pool waits for *)
Theorem C12_stuck_needs_full_pool : forall s, stuck s = true ->
  (exists i, In (PDeqWantR i) (ptasks s) /\ free_r s = Some 0%nat) \/
  (exists i, (In (PDeqWantS i) (ptasks s) \/ In (PAttWantS i) (ptasks s)) /\ free_s s = Some 0%nat).
Proof. exact stuck_needs_full_pool. Qed.
Print Assumptions C12_stuck_needs_full_pool.
