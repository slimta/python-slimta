(* Property C20 - envelope parsing keeps the body byte-exact and the headers
   intact.  Statements and their derivations from proof/Envelope_lemmas.v; the model is in
   model/Envelope.v.

   Vocabulary (model/Envelope.v):
     fs : list field          a header block of the property's class, as data
     wf_block fs = true       at least one field; names printable ASCII without ':';
                              values TAB / printable ASCII / 8-bit; every line <= 78
                              bytes; continuation lines begin with SP/TAB and are not
                              white-space only; each line ends CRLF or LF (per line)
     render fs                the bytes of the block
     hnorm_fields fs          the same fields with every line end CRLF
     blank_ok blank           blank = LF or CRLF (the empty line ending the block)
     codec_ok hparse hgen     the stated hypothesis about Python's `email` package
                              (BytesParser / BytesGenerator, policy SMTP): on render fs ++
                              blank the parser leaves no payload and the generator writes
                              render (hnorm_fields fs) ++ CRLF.  Tested by the
                              correspondence run, not proved. *)
From Coq Require Import List NArith Bool.
From SV Require Import lib.Bytes model.Envelope proof.Envelope_lemmas.
Import ListNotations.
Open Scope N_scope.

(* the boundary-search fact everything rests on: in H ++ blank ++ B, with H free
   of blank / white-space-only lines, the first match of \r?\n\s*?\n ends exactly
   after the blank line - whatever the body B is *)
Theorem C20_boundary : forall fs blank B,
  wf_block fs = true -> blank_ok blank ->
  search (render fs ++ blank ++ B) = Some (render fs ++ blank, B).
Proof. exact search_wf. Qed.
Print Assumptions C20_boundary.

(* parse then flatten: the body bytes after the first blank line unchanged (EVERY
   B: NUL, lone CR, leading blank lines, dot lines, 8-bit ...), the header fields
   in order with the same values, line ends CRLF *)
Theorem C20_body_exact :
  forall (hdr : Type) (hparse : bytes -> hdr * option bytes) (hgen : hdr -> bytes),
  codec_ok hparse hgen ->
  forall fs blank B sender rcpts,
  wf_block fs = true -> blank_ok blank ->
  flatten hdr hgen (parse hdr hparse sender rcpts (render fs ++ blank ++ B))
  = (render (hnorm_fields fs) ++ CRLF, B).
Proof. exact body_exact. Qed.
Print Assumptions C20_body_exact.

(* re-parsing the flattened output gives the same flattened output, and from
   then on the very same envelope *)
Theorem C20_fixed_point :
  forall (hdr : Type) (hparse : bytes -> hdr * option bytes) (hgen : hdr -> bytes),
  codec_ok hparse hgen ->
  forall fs blank B sender rcpts,
  wf_block fs = true -> blank_ok blank ->
  let e1 := parse hdr hparse sender rcpts (render fs ++ blank ++ B) in
  let e2 := parse hdr hparse sender rcpts (join (flatten hdr hgen e1)) in
  flatten hdr hgen e2 = flatten hdr hgen e1 /\
  parse hdr hparse sender rcpts (join (flatten hdr hgen e2)) = e2.
Proof. exact fixed_point. Qed.
Print Assumptions C20_fixed_point.

(* a deep copy of a pickled envelope flattens to the same bytes; copy replaces
   the recipients only by a non-empty list *)
Theorem C20_copy_pickle :
  forall (hdr : Type) (hparse : bytes -> hdr * option bytes) (hgen : hdr -> bytes),
  codec_ok hparse hgen ->
  forall fs blank B sender rcpts new_rcpts,
  wf_block fs = true -> blank_ok blank ->
  let e := parse hdr hparse sender rcpts (render fs ++ blank ++ B) in
  flatten hdr hgen (copy hdr (pickled hdr e) new_rcpts) = (render (hnorm_fields fs) ++ CRLF, B)
  /\ e_sender (copy hdr (pickled hdr e) new_rcpts) = sender
  /\ e_rcpts (copy hdr (pickled hdr e) new_rcpts) = (if null new_rcpts then rcpts else new_rcpts).
Proof. exact copy_pickle. Qed.
Print Assumptions C20_copy_pickle.

(* no encoder: every envelope (any codec, any content) with an 8-bit body is
   refused, and whatever passes is unchanged and ASCII *)
Theorem C20_7bit_refuses :
  forall (hdr : Type) (hparse : bytes -> hdr * option bytes) (hgen : hdr -> bytes) (e : envelope hdr),
  (has_8bit (e_message e) = true -> encode_7bit hdr hparse hgen None e = UnicodeErr) /\
  (forall e', encode_7bit hdr hparse hgen None e = Ok7 e' -> e' = e /\ has_8bit (e_message e') = false).
Proof.
  intros hdr hparse hgen e. rewrite encode_7bit_eq.
  destruct (has_8bit (e_message e)) eqn:E; split; try discriminate; [reflexivity|].
  intros e' H. injection H as <-. auto.
Qed.
Print Assumptions C20_7bit_refuses.

(* with an encoder, ASSUMING the stdlib encoder's contract (recode = email's MIME
   re-encoding: on single-part messages it replaces Content-Transfer-Encoding and
   writes encb body; encb output is ASCII and decodes to the text): the converted
   envelope has exactly that header block and exactly encb B as body - ASCII,
   decoding to the text of B - and keeps sender and recipients; an ASCII body is
   left alone *)
Theorem C20_7bit_ascii :
  forall (hdr : Type) (hparse : bytes -> hdr * option bytes) (hgen : hdr -> bytes),
  codec_ok hparse hgen ->
  forall (recode encb decb text_of : bytes -> bytes) (cte : bytes) (singlepart : list field -> Prop),
  wf_field (cte_field cte) = true ->
  (forall fs B, wf_block fs = true -> singlepart fs ->
     recode (gen_fields fs ++ B) = gen_fields (set_cte cte fs) ++ encb B) ->
  (forall B, has_8bit (encb B) = false) ->
  (forall B, decb (encb B) = text_of B) ->
  forall fs blank B sender rcpts,
  wf_block fs = true -> singlepart fs -> blank_ok blank ->
  let e := parse hdr hparse sender rcpts (render fs ++ blank ++ B) in
  exists e', encode_7bit hdr hparse hgen (Some recode) e = Ok7 e'
    /\ e_sender e' = sender /\ e_rcpts e' = rcpts
    /\ (has_8bit B = false -> e' = e)
    /\ (has_8bit B = true ->
          flatten hdr hgen e' = (gen_fields (set_cte cte fs), encb B)
          /\ has_8bit (e_message e') = false
          /\ decb (e_message e') = text_of B).
Proof. exact seven_ascii. Qed.
Print Assumptions C20_7bit_ascii.

(* the codec hypothesis is not vacuous: the executable class codec of the model
   (parse_block / gen_fields, what the extracted model runs) satisfies it *)
Theorem C20_class_codec_ok : codec_ok hparse_c hgen_c.
Proof. exact codec_c_ok. Qed.
Print Assumptions C20_class_codec_ok.

(* Envelope._msg_generator at header granularity (first attempt with policy SMTP,
   on failure a second attempt with refold_source='none' on a FRESH buffer): for
   every pair of fold functions and every header list, what is returned is every
   stored header exactly once, in order, all rendered by one policy, then the blank
   line - on the first-attempt path and on the fallback path; it raises only when
   both policies cannot fold some header *)
Theorem C20_fallback_no_duplication :
  forall (src : Type) (fold1 fold2 : src -> option bytes) (hs : list src),
  msg_generator src fold1 fold2 hs =
  match render_all src fold1 hs with
  | Some b => GenOk (b ++ CRLF)
  | None => match render_all src fold2 hs with
            | Some b => GenOk (b ++ CRLF)
            | None => GenRaises
            end
  end.
Proof. exact no_duplication. Qed.
Print Assumptions C20_fallback_no_duplication.

(* header blocks that may hold over-long lines (xwf_block: the class without the
   78-byte bound), ASSUMING email's parser stores the fields of such a block
   (parser_ok_x): the body is exact, and the generated header block is the fields as
   email folds them when every fold succeeds, the fields as received (CRLF) when one
   raises - never a field twice *)
Theorem C20_fallback_flatten :
  forall (hparse : bytes -> list field * option bytes) (fold_smtp : field -> option bytes),
  parser_ok_x hparse ->
  forall fs blank B sender rcpts, xwf_block fs = true -> blank_ok blank ->
  let e := parse (list field) hparse sender rcpts (render fs ++ blank ++ B) in
  e_message e = B /\ e_headers e = fs /\
  msg_generator field fold_smtp (fun f => Some (fold_raw f)) (e_headers e) =
    match render_all field fold_smtp fs with
    | Some b => GenOk (b ++ CRLF)
    | None => GenOk (render (hnorm_fields fs) ++ CRLF)
    end.
Proof. exact fallback_flatten. Qed.
Print Assumptions C20_fallback_flatten.

(* Sequences of operations on ONE Envelope object (flatten, encode_7bit with / without /
   with a failing encoder, copy, pickle round trip, parse again, in-place header edits),
   any length, any order: every flatten() returns the generator's rendering of the
   headers as the earlier operations left them, and the current message - the object
   remembers nothing else (no cached header block, no "already handled" flag) *)
Theorem C20_flatten_reflects_current_state :
  forall (hdr : Type) (hparse : bytes -> hdr * option bytes) (hgen : hdr -> bytes)
         (hedit : N -> hdr -> option hdr) (ops : list op) (e : envelope hdr) (k : nat),
  nth_error ops k = Some OFlatten ->
  nth_error (trace hdr hparse hgen hedit ops e) k =
    Some (ObsFlat (hgen (e_headers (state_at hdr hparse hgen hedit k ops e)))
                  (e_message (state_at hdr hparse hgen hedit k ops e))).
Proof. exact flatten_reflects_current_state. Qed.
Print Assumptions C20_flatten_reflects_current_state.

(* in particular: flatten, edit the headers object in place, flatten again - the second
   flatten shows the edited headers *)
Theorem C20_flatten_after_edit :
  forall (hdr : Type) (hparse : bytes -> hdr * option bytes) (hgen : hdr -> bytes)
         (hedit : N -> hdr -> option hdr) (pre : list op) (j : N) (h' : hdr) (e : envelope hdr),
  let s := state_at hdr hparse hgen hedit (length pre) pre e in
  hedit j (e_headers s) = Some h' ->
  nth_error (trace hdr hparse hgen hedit (pre ++ [OFlatten; OEdit j; OFlatten]) e) (length pre + 2)
  = Some (ObsFlat (hgen h') (e_message s)).
Proof. exact flatten_after_edit. Qed.
Print Assumptions C20_flatten_after_edit.

(* encode_7bit() without an encoder refuses at EVERY call at which the body is 8-bit -
   also the second call after a refusal, after a failed encoder, on a copy or an
   unpickled envelope - and leaves the envelope as it was *)
Theorem C20_7bit_refusal_every_call :
  forall (hdr : Type) (hparse : bytes -> hdr * option bytes) (hgen : hdr -> bytes)
         (hedit : N -> hdr -> option hdr) (ops : list op) (e : envelope hdr) (k : nat),
  nth_error ops k = Some (OEncode None) ->
  has_8bit (e_message (state_at hdr hparse hgen hedit k ops e)) = true ->
  nth_error (trace hdr hparse hgen hedit ops e) k = Some ObsRefused
  /\ effect hdr hparse hgen hedit (OEncode None) (state_at hdr hparse hgen hedit k ops e)
     = state_at hdr hparse hgen hedit k ops e.
Proof.
  intros hdr hparse hgen hedit ops e k H H8. rewrite trace_nth, H.
  unfold observe, effect. cbn [step]. rewrite encode_7bit_f_eq, H8. split; reflexivity.
Qed.
Print Assumptions C20_7bit_refusal_every_call.

(* a call with an encoder that returns normally either found an ASCII body (nothing
   changed) or really converted: the envelope is the re-parse of the encoder's output *)
Theorem C20_7bit_done_means_converted :
  forall (hdr : Type) (hparse : bytes -> hdr * option bytes) (hgen : hdr -> bytes)
         (hedit : N -> hdr -> option hdr) rc (e e' : envelope hdr),
  step hdr hparse hgen hedit (OEncode rc) e = (e', ObsDone) ->
  (has_8bit (e_message e) = false /\ e' = e)
  \/ (has_8bit (e_message e) = true /\ exists f d, rc = Some f /\ f (join (flatten hdr hgen e)) = Some d
        /\ e' = parse hdr hparse (e_sender e) (e_rcpts e) d).
Proof.
  intros hdr hparse hgen hedit rc e e' H. cbn [step] in H. rewrite encode_7bit_f_eq in H.
  destruct (has_8bit (e_message e)); [right|left; injection H as <-; auto].
  destruct rc as [f|]; [|discriminate]. destruct (f _) as [d|] eqn:F; [|discriminate].
  injection H as <-. split; [reflexivity|]. exists f, d. auto.
Qed.
Print Assumptions C20_7bit_done_means_converted.
