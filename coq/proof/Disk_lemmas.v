(* model/Disk.v: the number codec round-trips; the file-system commands are
   local to the paths they name (`dexec_local`); Hoare-style lemmas (okrun of
   Prog_lemmas) for AioFile.dump - temp file, then atomic rename - and for the
   DiskStorage operations; what get() and load() return, read off the files. *)
From Coq Require Import List NArith Bool Lia PeanoNat.
From SV Require Import lib.Assoc model.StoreCore model.Disk.
From SV Require Import proof.Assoc_lemmas proof.Rounds_lemmas proof.Prog_lemmas.
Import ListNotations.
Open Scope N_scope.

Local Arguments firstn : simpl never.
Local Arguments skipn : simpl never.

Lemma digits_uint_digits u : digits_uint (uint_digits u) = Some u.
Proof. induction u; cbn [uint_digits digits_uint]; try rewrite IHu; reflexivity. Qed.

Lemma uint_digits_no_semi u : forall x, In x (uint_digits u) -> x <> SEMI.
Proof.
  induction u; cbn [uint_digits In]; intros x H; try (destruct H as [<-|H]; [unfold SEMI; lia|apply IHu; exact H]).
  destruct H.
Qed.

Lemma to_uint_nonnil n : uint_digits (N.to_uint n) <> [].
Proof.
  destruct n as [|p]; [cbn; discriminate|].
  cbn [N.to_uint]. pose proof (DecimalPos.Unsigned.to_uint_nonnil p) as H.
  destruct (Pos.to_uint p); cbn [uint_digits]; try discriminate. congruence.
Qed.

Lemma dec_nums_aux_digits ds rest cur :
  (forall x, In x ds -> x <> SEMI) ->
  dec_nums_aux (ds ++ rest) cur = dec_nums_aux rest (rev ds ++ cur).
Proof.
  revert cur; induction ds as [|d ds IH]; intros cur H; [reflexivity|].
  cbn [app dec_nums_aux]. destruct (N.eqb_spec d SEMI) as [E|_].
  - destruct (H d (or_introl eq_refl) E).
  - rewrite IH by (intros x Hx; apply H; right; exact Hx).
    cbn [rev]. rewrite <- app_assoc. reflexivity.
Qed.

Lemma dec_enc_nums l : dec_nums (enc_nums l) = Some l.
Proof.
  unfold dec_nums. induction l as [|n l IH]; [reflexivity|].
  cbn [enc_nums]. rewrite dec_nums_aux_digits by apply uint_digits_no_semi.
  rewrite app_nil_r.
  destruct (rev (uint_digits (N.to_uint n))) as [|x xs] eqn:Er.
  - exfalso. apply (to_uint_nonnil n). rewrite <- (rev_involutive (uint_digits (N.to_uint n))), Er. reflexivity.
  - cbn [dec_nums_aux]. rewrite N.eqb_refl, <- Er, rev_involutive, digits_uint_digits, IH.
    rewrite DecimalN.Unsigned.of_to. reflexivity.
Qed.

Lemma enc_nums_nonempty l : l <> [] -> enc_nums l <> [].
Proof.
  destruct l as [|n l]; [congruence|]. intros _. cbn [enc_nums].
  destruct (uint_digits (N.to_uint n)); discriminate.
Qed.

Lemma nc_dec_enc_meta m : nc_dec_meta (nc_enc_meta m) = Some m.
Proof.
  unfold nc_dec_meta, nc_enc_meta. rewrite dec_enc_nums.
  destruct m as [ts att [l|]]; reflexivity.
Qed.

Lemma rcpts_of_nums_enc rs rest :
  rcpts_of_nums (length rs) (nums_of_rcpts rs ++ rest) = Some (rs, rest).
Proof.
  induction rs as [|r rs IH]; [reflexivity|].
  cbn [length nums_of_rcpts rcpts_of_nums app]. rewrite Nat2N.id.
  rewrite <- app_assoc.
  destruct (Nat.ltb (length (r ++ nums_of_rcpts rs ++ rest)) (length r)) eqn:E.
  - apply Nat.ltb_lt in E. rewrite app_length in E. lia.
  - rewrite skipn_app, skipn_all, Nat.sub_diag. cbn [app]. change (skipn 0 ?x) with x.
    rewrite IH. rewrite firstn_app, firstn_all, Nat.sub_diag. change (firstn 0 ?x) with (@nil N).
    rewrite app_nil_r. reflexivity.
Qed.

Lemma nc_dec_enc_env e : nc_dec_env (nc_enc_env e) = Some e.
Proof.
  unfold nc_dec_env, nc_enc_env. rewrite dec_enc_nums.
  destruct e as [s rs c]. unfold nums_of_env. cbn [e_sender e_rcpts e_content]. cbn [env_of_nums].
  rewrite Nat2N.id.
  destruct (Nat.ltb (length (s ++ N.of_nat (length rs) :: nums_of_rcpts rs ++ c)) (length s)) eqn:E.
  - apply Nat.ltb_lt in E. rewrite app_length in E. lia.
  - rewrite skipn_app, skipn_all, Nat.sub_diag. cbn [app]. change (skipn 0 ?x) with x.
    cbv beta iota. rewrite Nat2N.id, rcpts_of_nums_enc.
    rewrite firstn_app, firstn_all, Nat.sub_diag. change (firstn 0 ?x) with (@nil N).
    rewrite app_nil_r. reflexivity.
Qed.

Lemma nc_enc_meta_nonempty m : nc_enc_meta m <> [].
Proof. apply enc_nums_nonempty. discriminate. Qed.
Lemma nc_enc_env_nonempty e : nc_enc_env e <> [].
Proof. apply enc_nums_nonempty. discriminate. Qed.

Lemma path_eqb_eq a b : path_eqb a b = true <-> a = b.
Proof.
  destruct a, b; cbn [path_eqb]; split; intros H; try discriminate;
    try (apply N.eqb_eq in H; subst; reflexivity); inversion H; subst; apply N.eqb_refl.
Qed.

Lemma path_eqb_refl a : path_eqb a a = true.
Proof. apply path_eqb_eq. reflexivity. Qed.

Lemma path_eq_dec (a b : path) : {a = b} + {a <> b}.
Proof. exact (keq_dec path path_eqb path_eqb_eq a b). Qed.

Definition fset (s : fs) p d : fs := aset path_eqb s p d.
Definition fdel (s : fs) p : fs := adel path_eqb s p.

(* the lookup equations of proof/Assoc_lemmas.v at the key type of the file system *)
Lemma fget_fset s p d q : fget (fset s p d) q = if path_eqb p q then Some d else fget s q.
Proof. apply (lookup_set path bytes path_eqb path_eqb_eq). Qed.
Lemma fget_fdel s p q : fget (fdel s p) q = if path_eqb p q then None else fget s q.
Proof. apply (lookup_del path bytes path_eqb path_eqb_eq). Qed.
Lemma fget_fset_same s p d : fget (fset s p d) p = Some d.
Proof. apply (lookup_set_same path bytes path_eqb path_eqb_eq). Qed.
Lemma fget_fset_other s p d q : p <> q -> fget (fset s p d) q = fget s q.
Proof. apply (lookup_set_other path bytes path_eqb path_eqb_eq). Qed.
Lemma fget_fdel_same s p : fget (fdel s p) p = None.
Proof. apply (lookup_del_same path bytes path_eqb). Qed.
Lemma fget_fdel_other s p q : p <> q -> fget (fdel s p) q = fget s q.
Proof. apply (lookup_del_other path bytes path_eqb path_eqb_eq). Qed.

Lemma amem_fget s p : amem path_eqb s p = match fget s p with Some _ => true | None => false end.
Proof. reflexivity. Qed.

Lemma env_ids_raw_In s id : In id (env_ids_raw s) <-> fget s (PEnv id) <> None.
Proof.
  induction s as [|[p b] s IH]; cbn [env_ids_raw].
  - split; [intros []|intros H; exfalso; apply H; reflexivity].
  - unfold fget in *. cbn [alookup]. destruct p as [i|i|t]; cbn [path_eqb].
    + cbn [In]. destruct (N.eqb_spec i id) as [->|Hne].
      * split; [discriminate|left; reflexivity].
      * rewrite IH. split; [intros [H|H]; [contradiction|exact H]|right; assumption].
    + exact IH.
    + exact IH.
Qed.

Lemma env_ids_In s id : In id (env_ids s) <-> fget s (PEnv id) <> None.
Proof. unfold env_ids. rewrite sorted_asc_In, nodup_In. apply env_ids_raw_In. Qed.

Lemma env_ids_NoDup s : NoDup (env_ids s).
Proof. eapply Permutation.Permutation_NoDup; [apply sorted_asc_perm|apply NoDup_nodup]. Qed.

Definition dloc (s : fs) (p : path) : option bytes := fget s p.

Lemma dexec_local : local_exec dexec dloc dfp.
Proof.
  unfold dloc. split.
  - intros s c f q. destruct c; cbn [dexec]; intros [= <-] Hq; try reflexivity.
    + destruct (amem path_eqb s (PTmp t)); cbn [fst]; [|rewrite fget_fset, Hq]; reflexivity.
    + destruct (fget s (PTmp t)); cbn [fst]; [rewrite fget_fset, Hq|]; reflexivity.
    + change (path_eqb (PTmp t) q || path_eqb p q = false) in Hq. destruct (orb_false_elim _ _ Hq) as [Hq1 Hq2].
      destruct (fget s (PTmp t)); cbn [fst]; [rewrite fget_fset, Hq2, fget_fdel, Hq1|]; reflexivity.
    + cbn [fst]. rewrite fget_fdel, Hq. reflexivity.
  - intros s t c f. destruct c; cbn [dexec]; intros [= <-] Hag.
    + rewrite !amem_fget, (Hag p (path_eqb_refl p)). split; [reflexivity|exact Hag].
    + rewrite !amem_fget, (Hag (PTmp t0) (path_eqb_refl _)).
      destruct (fget t (PTmp t0)); cbn [fst snd]; (split; [reflexivity|]); [exact Hag|].
      intros q Hq. rewrite !fget_fset, Hq. reflexivity.
    + rewrite (Hag (PTmp t0) (path_eqb_refl _)).
      destruct (fget t (PTmp t0)); cbn [fst snd]; (split; [reflexivity|]); [|exact Hag].
      intros q Hq. rewrite !fget_fset, Hq. reflexivity.
    + rewrite (Hag (PTmp t0)) by (cbn [path_eqb]; rewrite N.eqb_refl; reflexivity).
      destruct (fget t (PTmp t0)) as [b|]; cbn [fst snd]; (split; [reflexivity|]); [|exact Hag].
      intros q Hq. change (path_eqb (PTmp t0) q || path_eqb p q = true) in Hq. rewrite !fget_fset, !fget_fdel.
      destruct (path_eqb p q); [reflexivity|]. destruct (path_eqb (PTmp t0) q); [reflexivity|discriminate Hq].
    + split; [reflexivity|exact Hag].
    + cbn [fst snd]. split; [reflexivity|]. intros q Hq. rewrite !fget_fdel, Hq. reflexivity.
    + cbn [fst snd]. rewrite (Hag p (path_eqb_refl p)). split; [reflexivity|exact Hag].
Qed.

Definition agree_but (ps : list path) (s s' : fs) : Prop :=
  forall q, ~ In q ps -> fget s' q = fget s q.

Lemma agree_but_refl ps s : agree_but ps s s.
Proof. intros q _. reflexivity. Qed.

Lemma agree_but_weaken ps ps' s s' :
  (forall q, In q ps -> In q ps') -> agree_but ps s s' -> agree_but ps' s s'.
Proof. intros Hsub H q Hq. apply H. intros Hin. apply Hq, Hsub, Hin. Qed.

Lemma agree_but_trans ps s1 s2 s3 : agree_but ps s1 s2 -> agree_but ps s2 s3 -> agree_but ps s1 s3.
Proof. intros H1 H2 q Hq. rewrite (H2 q Hq). apply H1, Hq. Qed.

Lemma agree_but_app ps1 ps2 s1 s2 s3 : agree_but ps1 s1 s2 -> agree_but ps2 s2 s3 -> agree_but (ps1 ++ ps2) s1 s3.
Proof.
  intros H1 H2. apply (agree_but_trans _ s1 s2 s3); [eapply agree_but_weaken; [|exact H1]|eapply agree_but_weaken; [|exact H2]];
    intros q Hq; apply in_or_app; auto.
Qed.

Lemma agree_but_fset ps s p d : In p ps -> agree_but ps s (fset s p d).
Proof. intros Hin q Hq. apply fget_fset_other. intros ->. contradiction. Qed.

Lemma agree_but_fdel ps s p : In p ps -> agree_but ps s (fdel s p).
Proof. intros Hin q Hq. apply fget_fdel_other. intros ->. contradiction. Qed.

Lemma pwrite_end d ch : pwrite d (N.of_nat (length d)) ch = d ++ ch.
Proof.
  unfold pwrite. rewrite Nat2N.id, firstn_all, Nat.sub_diag. cbn [repeat app].
  rewrite skipn_all2 by lia. rewrite app_nil_r. reflexivity.
Qed.

(* AioFile.dump, whatever the asynchronous writes do (store fewer bytes than
   asked, any number of times; report an error at any point): while the temp
   file is being written nothing but the temp file changes; the rename installs
   the complete data atomically; after a reported error (only then) the
   operation ends with the IOError and the target is untouched. *)
Section Dump.
  Variable cfg : wcfg.

  Lemma written_bounds t off n w : written cfg t off n = Some w -> (1 <= n)%nat -> (1 <= w <= n)%nat.
  Proof.
    unfold written. destruct (w_fault cfg t off n) as [w0|]; [|discriminate].
    intros E Hn. inversion E; subst w; clear E.
    destruct (Nat.ltb 0 w0 && Nat.ltb w0 n)%bool eqn:E; [|lia].
    apply andb_prop in E as [E1 E2]. apply Nat.ltb_lt in E1. apply Nat.ltb_lt in E2. lia.
  Qed.

  Hypothesis cfg_chunk : w_chunk cfg <> O.
  Variable I : list (op * res) -> op -> fs -> Prop.
  Variable B : list (op * res) -> fs -> Prop.
  Notation okrun := (okrun fs dcmd dans dexec I B).

  Lemma okrun_write_loop d o p t k data s :
    p <> PTmp t ->
    (forall s', agree_but [PTmp t] s s' -> I d o s') ->
    (forall off n, w_fault cfg t off n = None ->
       forall s', agree_but [PTmp t] s s' -> B (d ++ [(o, REmptyWrite)]) s') ->
    (forall s2, agree_but [PTmp t; p] s s2 -> fget s2 p = Some data -> fget s2 (PTmp t) = None ->
                I d o s2 /\ okrun d o s2 k) ->
    forall fuel rest sofar s1,
      agree_but [PTmp t] s s1 -> fget s1 (PTmp t) = Some sofar ->
      sofar ++ rest = data -> rest <> [] -> (length rest <= fuel)%nat ->
      okrun d o s1 (write_loop cfg fuel t (N.of_nat (length sofar)) rest p k).
  Proof.
    intros Hp HI HE HK. induction fuel as [|f IH]; intros rest sofar s1 Hag Hget Hdata Hne Hlen.
    { destruct rest; [congruence|cbn [length] in Hlen; lia]. }
    destruct rest as [|x r]; [congruence|].
    destruct (w_chunk cfg) as [|c] eqn:Ec; [congruence|].
    cbn [write_loop]. rewrite Ec, firstn_cons.
    destruct (written cfg t _ (length (x :: firstn c r))) as [w|] eqn:Ew.
    2:{ unfold written in Ew. destruct (w_fault cfg t _ _) eqn:Ef; [discriminate|].
        apply ok_step; [apply HI; exact Hag|]. cbn [dexec fst snd]. apply ok_ret. eapply HE; eassumption. }
    apply written_bounds in Ew; [|cbn [length]; lia].
    assert (Hw : (w <= length (x :: r))%nat) by (cbn [length] in *; rewrite firstn_length in Ew; lia).
    destruct w as [|w']; [lia|]. rewrite firstn_cons.
    apply ok_step; [apply HI; exact Hag|]. cbn [dexec]. rewrite Hget. cbn [fst snd]. rewrite pwrite_end.
    set (piece := x :: firstn w' r) in *.
    set (s2 := aset path_eqb s1 (PTmp t) (sofar ++ piece)).
    assert (Hag2 : agree_but [PTmp t] s s2).
    { eapply agree_but_trans; [exact Hag|]. apply (agree_but_fset [PTmp t] s1). left; reflexivity. }
    assert (Hget2 : fget s2 (PTmp t) = Some (sofar ++ piece)) by apply fget_fset_same.
    assert (Hsplit : piece ++ skipn (S w') (x :: r) = x :: r).
    { unfold piece. rewrite <- firstn_cons. apply firstn_skipn. }
    assert (Hpl : length piece = S w').
    { unfold piece. rewrite <- firstn_cons, firstn_length. lia. }
    destruct (skipn (S w') (x :: r)) as [|y r'] eqn:Er.
    - (* the last piece: rename publishes sofar ++ piece = data, then the close *)
      apply ok_step; [apply HI; exact Hag2|]. cbn [dexec]. rewrite Hget2. cbn [fst snd].
      rewrite app_nil_r in Hsplit.
      destruct (HK (fset (fdel s2 (PTmp t)) p (sofar ++ piece))) as [HI' HK'].
      + intros q Hq.
        rewrite fget_fset_other by (intros ->; apply Hq; right; left; reflexivity).
        rewrite fget_fdel_other by (intros <-; apply Hq; left; reflexivity).
        apply Hag2. intros [<-|[]]. apply Hq. left; reflexivity.
      + rewrite fget_fset_same, Hsplit. congruence.
      + rewrite fget_fset_other by exact Hp. apply fget_fdel_same.
      + apply ok_step; [exact HI'|exact HK'].
    - assert (Hl : (length (y :: r') <= f)%nat).
      { rewrite <- Er, skipn_length. cbn [length] in *. lia. }
      destruct f as [|f']; [cbn [length] in Hl; lia|].
      replace (N.of_nat (length sofar) + N.of_nat (S w')) with (N.of_nat (length (sofar ++ piece)))
        by (rewrite app_length, Hpl; lia).
      apply IH; try assumption.
      + rewrite <- app_assoc, Hsplit. exact Hdata.
      + discriminate.
  Qed.

  Lemma okrun_dump d o p t k data s :
    p <> PTmp t -> data <> [] -> fget s (PTmp t) = None ->
    (forall s', agree_but [PTmp t] s s' -> I d o s') ->
    (forall off n, w_fault cfg t off n = None ->
       forall s', agree_but [PTmp t] s s' -> B (d ++ [(o, REmptyWrite)]) s') ->
    (forall s2, agree_but [PTmp t; p] s s2 -> fget s2 p = Some data -> fget s2 (PTmp t) = None ->
                I d o s2 /\ okrun d o s2 k) ->
    okrun d o s (dump cfg data p t k).
  Proof.
    intros Hp Hne Hfree HI HE HK. unfold dump.
    apply ok_step; [apply HI, agree_but_refl|]. cbn [dexec]. rewrite amem_fget, Hfree. cbn [fst snd].
    apply (okrun_write_loop d o p t k data s Hp HI HE HK (length data) data []); try reflexivity; try assumption.
    - apply (agree_but_fset [PTmp t] s). left; reflexivity.
    - apply fget_fset_same.
  Qed.
End Dump.

Lemma dump_steps cfg data p t r s n :
  w_chunk cfg <> O -> data <> [] -> p <> PTmp t -> fget s (PTmp t) = None ->
  let st := asteps dexec prog_next n s (dump cfg data p t (Ret r)) in
  (forall q, q <> PTmp t -> q <> p -> fget (fst st) q = fget s q) /\
  (fget (fst st) p = fget s p \/ (fget (fst st) p = Some data /\ fget (fst st) (PTmp t) = None)) /\
  match snd st with
  | Ret x => (x = r /\ fget (fst st) p = Some data /\ fget (fst st) (PTmp t) = None) \/
             (x = REmptyWrite /\ fget (fst st) p = fget s p /\ exists off m, w_fault cfg t off m = None)
  | Do _ _ => True
  end.
Proof.
  intros Hc Hd Hp Hf st.
  (* Two predicates on the file system: Tmp while the temp file is written, Done
     once the rename has installed the data.  okrun speaks of an operation in
     flight and of the completed ones; a dump alone has neither, so OGet 0 and []
     stand in, and B reads the result of the dump off the one pair it is given. *)
  set (Tmp := fun s' : fs => agree_but [PTmp t] s s').
  set (Done := fun s' : fs => agree_but [PTmp t; p] s s' /\ fget s' p = Some data /\ fget s' (PTmp t) = None).
  set (B := fun (dd : list (op * res)) (s' : fs) =>
              (dd = [(OGet 0, r)] /\ Done s') \/
              (dd = [(OGet 0, REmptyWrite)] /\ Tmp s' /\ exists off m, w_fault cfg t off m = None)).
  set (I := fun (_ : list (op * res)) (_ : op) (s' : fs) => Tmp s' \/ Done s').
  assert (Hok : okrun fs dcmd dans dexec I B [] (OGet 0) s (dump cfg data p t (Ret r))).
  { apply (okrun_dump cfg Hc I B); try assumption.
    - intros s' A. left. exact A.
    - intros off m E s' A. right. split; [reflexivity|]. split; [exact A|]. exists off, m. exact E.
    - intros s2 A G F. assert (Done s2) by (repeat split; assumption).
      split; [right; assumption|apply ok_ret; left; split; [reflexivity|assumption]]. }
  pose proof (okrun_asteps fs dcmd dans dexec I B [] (OGet 0) n s _ Hok) as H. fold st in H.
  assert (HD : forall s', Done s' ->
               (forall q, q <> PTmp t -> q <> p -> fget s' q = fget s q) /\
               (fget s' p = fget s p \/ (fget s' p = Some data /\ fget s' (PTmp t) = None))).
  { intros s' (A & G & F). split; [|right; split; assumption].
    intros q Hq1 Hq2. apply A. intros [E|[E|[]]]; congruence. }
  assert (HT : forall s', Tmp s' ->
               (forall q, q <> PTmp t -> q <> p -> fget s' q = fget s q) /\ fget s' p = fget s p).
  { intros s' A. split; [intros q Hq1 Hq2|]; apply A; intros [E|[]]; congruence. }
  destruct (snd st) as [x|c k].
  - cbn [app] in H. destruct H as [[E Hdn]|(E & A & Hw)]; inversion E; subst x.
    + destruct (HD _ Hdn) as [H1 H2]. split; [exact H1|]. split; [exact H2|].
      left. destruct Hdn as (_ & G & F). auto.
    + destruct (HT _ A) as [H1 H2]. split; [exact H1|]. split; [left; exact H2|]. right. auto.
  - destruct H as [A|Hdn].
    + destruct (HT _ A) as [H1 H2]. split; [exact H1|]. split; [left; exact H2|exact Logic.I].
    + destruct (HD _ Hdn) as [H1 H2]. split; [exact H1|]. split; [exact H2|exact Logic.I].
Qed.

(* Programs made of the three commands that only look: the syntactic way to
   show a disk program read-only (ro_prog of Prog_lemmas). *)
Inductive readonly : dprog -> Prop :=
| ro_ret r : readonly (Ret r)
| ro_exists p k : (forall a, readonly (k a)) -> readonly (Do (CExists p) k)
| ro_read p k : (forall a, readonly (k a)) -> readonly (Do (CRead p) k)
| ro_listdir k : (forall a, readonly (k a)) -> readonly (Do CListdir k).

Lemma readonly_ro p : readonly p -> ro_prog fs dcmd dans dexec p.
Proof. induction 1; [apply rop_ret|apply rop_do; [reflexivity|assumption]..]. Qed.

Lemma readonly_run p s : readonly p -> fst (run dexec p s) = s.
Proof. intros H. apply ro_prog_run, readonly_ro, H. Qed.

Section DiskProofs.
  Variable enc_env : envelope -> bytes.
  Variable dec_env : bytes -> option envelope.
  Variable enc_meta : meta -> bytes.
  Variable dec_meta : bytes -> option meta.
  Variable chunk : wcfg.
  Hypothesis dec_enc_env : forall e, dec_env (enc_env e) = Some e.
  Hypothesis dec_enc_meta : forall m, dec_meta (enc_meta m) = Some m.
  Hypothesis enc_env_nonempty : forall e, enc_env e <> [].
  Hypothesis enc_meta_nonempty : forall m, enc_meta m <> [].
  Hypothesis chunk_pos : wcfg_ok chunk.

  Notation dprog_of := (disk_prog enc_env dec_env enc_meta dec_meta chunk).
  Notation write_loop := (write_loop chunk).
  Notation dump := (dump chunk).

  Section Hoare.
    Variable I : list (op * res) -> op -> fs -> Prop.
    Variable B : list (op * res) -> fs -> Prop.
    Notation okrun := (okrun fs dcmd dans dexec I B).

    Lemma okrun_dump_ok d o p t k data s :
      p <> PTmp t -> data <> [] -> fget s (PTmp t) = None ->
      (forall s', agree_but [PTmp t] s s' -> I d o s') ->
      (forall s2, agree_but [PTmp t; p] s s2 -> fget s2 p = Some data -> fget s2 (PTmp t) = None ->
                  I d o s2 /\ okrun d o s2 k) ->
      okrun d o s (dump data p t k).
    Proof.
      intros Hp Hne Hfree HI HK. apply (okrun_dump chunk (proj1 chunk_pos) I B); try assumption.
      intros off n E. destruct (proj2 chunk_pos t off n E).
    Qed.

    Lemma okrun_update d o id t tmps f result s m :
      fget s (PMeta id) = Some (enc_meta m) -> fget s (PTmp t) = None ->
      (forall s', agree_but [PTmp t] s s' -> I d o s') ->
      (forall s2, agree_but [PTmp t; PMeta id] s s2 -> fget s2 (PMeta id) = Some (enc_meta (f m)) ->
                  fget s2 (PTmp t) = None -> I d o s2 /\ B (d ++ [(o, result (f m))]) s2) ->
      okrun d o s (update_meta enc_meta dec_meta chunk id (t :: tmps) f result).
    Proof.
      intros Hm Hfree HI HB. unfold update_meta, read_meta.
      apply ok_step; [apply HI, agree_but_refl|]. cbn [dexec fst snd]. rewrite Hm, dec_enc_meta.
      apply okrun_dump_ok; try assumption; [discriminate|apply enc_meta_nonempty|].
      intros s2 H1 H2 H3. destruct (HB s2 H1 H2 H3) as [Hi Hb]. split; [exact Hi|apply ok_ret; exact Hb].
    Qed.

    Lemma okrun_update_missing d o id tmps f result s :
      fget s (PMeta id) = None -> I d o s -> B (d ++ [(o, RMissing)]) s ->
      okrun d o s (update_meta enc_meta dec_meta chunk id tmps f result).
    Proof.
      intros Hm HI HB. unfold update_meta, read_meta. apply ok_step; [exact HI|].
      cbn [dexec fst snd]. rewrite Hm. apply ok_ret. exact HB.
    Qed.

    (* write() with candidates pre ++ id :: post, the ids of pre taken, id free.
       The caller shows I in three phases: while the candidates are probed and
       the env file is dumped (only the temp file t1 differs from s); while the
       meta file is dumped (the env file is in place, t2 is in flux); and at
       the end, with B, when both files are in place and both temp names gone. *)
    Lemma okrun_write d o e ts pre id post t1 t2 tmps s :
      (forall c, In c pre -> fget s (PEnv c) <> None) -> fget s (PEnv id) = None ->
      fget s (PTmp t1) = None -> fget s (PTmp t2) = None ->
      (forall s', agree_but [PTmp t1] s s' -> I d o s') ->
      (forall s', agree_but [PTmp t1; PEnv id; PTmp t2] s s' -> fget s' (PEnv id) = Some (enc_env e) -> I d o s') ->
      (forall s2, agree_but [PTmp t1; PEnv id; PTmp t2; PMeta id] s s2 ->
                  fget s2 (PEnv id) = Some (enc_env e) ->
                  fget s2 (PMeta id) = Some (enc_meta (mkMeta ts 0 None)) ->
                  fget s2 (PTmp t1) = None -> fget s2 (PTmp t2) = None ->
                  I d o s2 /\ B (d ++ [(o, RId id)]) s2) ->
      okrun d o s (d_write enc_env enc_meta chunk e ts (pre ++ id :: post) (t1 :: t2 :: tmps)).
    Proof.
      intros Hpre Hid Hf1 Hf2 HI1 HI2 HB.
      induction pre as [|c pre IH]; cbn [app d_write].
      - apply ok_step; [apply HI1, agree_but_refl|]. cbn [dexec]. rewrite amem_fget, Hid. cbn [fst snd].
        apply okrun_dump_ok; try assumption; [discriminate|apply enc_env_nonempty|].
        intros s1 A1 G1 F1.
        assert (F2 : fget s1 (PTmp t2) = None).
        { destruct (N.eq_dec t1 t2) as [->|Hne]; [exact F1|].
          rewrite A1; [exact Hf2|]. intros [E|[E|[]]]; inversion E; congruence. }
        (* while the meta file is being dumped the env file stays in place *)
        assert (HI2' : forall s', agree_but [PTmp t2] s1 s' -> I d o s').
        { intros s' A'. apply HI2; [exact (agree_but_app _ _ _ _ _ A1 A')|].
          rewrite A'; [exact G1|intros [E|[]]; discriminate]. }
        split; [apply HI2', agree_but_refl|].
        apply okrun_dump_ok; try assumption; [discriminate|apply enc_meta_nonempty|].
        intros s2 A2 G2 F2'.
        enough (HB' : I d o s2 /\ B (d ++ [(o, RId id)]) s2)
          by (destruct HB' as [Hi Hb]; split; [exact Hi|apply ok_ret; exact Hb]).
        apply HB; [exact (agree_but_app _ _ _ _ _ A1 A2)|rewrite A2; [exact G1|intros [E|[E|[]]]; discriminate]|exact G2| |exact F2'].
        destruct (N.eq_dec t1 t2) as [->|Hne]; [exact F2'|].
        rewrite A2; [exact F1|]. intros [E|[E|[]]]; inversion E; congruence.
      - apply ok_step; [apply HI1, agree_but_refl|]. cbn [dexec]. rewrite amem_fget.
        destruct (fget s (PEnv c)) eqn:Ec; [|destruct (Hpre c (or_introl eq_refl) Ec)].
        cbn [fst snd]. apply IH. intros c' Hc'. apply Hpre. right; exact Hc'.
    Qed.

    Lemma okrun_write_noid d o e ts cands tmps s :
      (forall c, In c cands -> fget s (PEnv c) <> None) -> I d o s -> B (d ++ [(o, RNoId)]) s ->
      okrun d o s (d_write enc_env enc_meta chunk e ts cands tmps).
    Proof.
      intros Hpre HI HB. induction cands as [|c cands IH]; cbn [d_write]; [apply ok_ret; exact HB|].
      apply ok_step; [exact HI|]. cbn [dexec]. rewrite amem_fget.
      destruct (fget s (PEnv c)) eqn:Ec; [|destruct (Hpre c (or_introl eq_refl) Ec)].
      cbn [fst snd]. apply IH. intros c' Hc'. apply Hpre. right; exact Hc'.
    Qed.

    Lemma okrun_remove d o id s :
      I d o s -> I d o (fdel s (PEnv id)) -> B (d ++ [(o, RUnit)]) (fdel (fdel s (PEnv id)) (PMeta id)) ->
      okrun d o s (dprog_of (ORemove id)).
    Proof.
      intros H1 H2 HB. cbn [disk_prog]. apply ok_step; [exact H1|].
      apply ok_step; [exact H2|]. apply ok_ret. exact HB.
    Qed.
  End Hoare.

  Lemma readonly_get id : readonly (d_get dec_env dec_meta id).
  Proof.
    unfold d_get, read_meta. apply ro_read. intros a.
    destruct a as [| |b|[b|]|l]; try apply ro_ret.
    destruct (dec_meta b); [|apply ro_ret].
    apply ro_read. intros a. destruct a as [| |b'|[b'|]|l']; try apply ro_ret.
    destruct (dec_env b'); [|apply ro_ret]. destruct (accum_get _ _); apply ro_ret.
  Qed.

  Lemma readonly_load_loop ids acc : readonly (load_loop dec_meta ids acc).
  Proof.
    revert acc; induction ids as [|id ids IH]; intros acc; cbn [load_loop]; [apply ro_ret|].
    apply ro_read. intros a. destruct a as [| |b|[b|]|l]; try apply IH.
    destruct (dec_meta b); [apply IH|apply ro_ret].
  Qed.

  Lemma readonly_load now : readonly (dprog_of (OLoad now)).
  Proof.
    cbn [disk_prog]. apply ro_listdir. intros a. destruct a; try apply ro_ret. apply readonly_load_loop.
  Qed.

  Definition load_entry (s : fs) (id : N) : list (N * N) :=
    match fget s (PMeta id) with
    | Some b => match dec_meta b with Some m => [(m_ts m, id)] | None => [] end
    | None => []
    end.
  Definition load_list (s : fs) (ids : list N) : list (N * N) := flat_map (load_entry s) ids.

  Definition metas_ok (s : fs) : Prop :=
    forall id b, fget s (PMeta id) = Some b -> dec_meta b <> None.

  Lemma load_loop_run s ids acc :
    metas_ok s ->
    run dexec (load_loop dec_meta ids acc) s = (s, RLoad (rev acc ++ load_list s ids)).
  Proof.
    intros Hok. revert acc; induction ids as [|id ids IH]; intros acc; cbn [load_loop run load_list flat_map].
    - rewrite app_nil_r. reflexivity.
    - cbn [dexec]. unfold load_entry. destruct (fget s (PMeta id)) as [b|] eqn:E.
      + destruct (dec_meta b) as [m|] eqn:Ed; [|exfalso; apply (Hok id b E Ed)].
        rewrite IH. cbn [rev]. rewrite <- app_assoc. reflexivity.
      + rewrite IH. reflexivity.
  Qed.

  Lemma load_run s now :
    metas_ok s -> run dexec (dprog_of (OLoad now)) s = (s, RLoad (load_list s (env_ids s))).
  Proof. intros Hok. cbn [disk_prog run dexec]. rewrite load_loop_run by exact Hok. reflexivity. Qed.

  Lemma In_load_list s ids t id :
    In (t, id) (load_list s ids) <->
    In id ids /\ exists b m, fget s (PMeta id) = Some b /\ dec_meta b = Some m /\ m_ts m = t.
  Proof.
    unfold load_list. rewrite in_flat_map. split.
    - intros (j & Hj & Hin). unfold load_entry in Hin.
      destruct (fget s (PMeta j)) as [b|] eqn:E; [|destruct Hin].
      destruct (dec_meta b) as [m|] eqn:Ed; [|destruct Hin].
      destruct Hin as [Hin|[]]. inversion Hin; subst. split; [exact Hj|]. exists b, m. repeat split; assumption.
    - intros (Hin & b & m & E & Ed & Ht). exists id. split; [exact Hin|].
      unfold load_entry. rewrite E, Ed. left. rewrite Ht. reflexivity.
  Qed.

  Lemma NoDup_load_list s ids : NoDup ids -> NoDup (map snd (load_list s ids)).
  Proof.
    induction 1 as [|id ids Hni Hnd IH]; cbn [load_list flat_map]; [constructor|].
    unfold load_entry at 1. destruct (fget s (PMeta id)) as [b|]; [|exact IH].
    destruct (dec_meta b) as [m|]; [|exact IH]. cbn [app map snd]. constructor; [|exact IH].
    intros Hin. apply in_map_iff in Hin as ([t j] & E & Hin). cbn [snd] in E. subst j.
    apply In_load_list in Hin. destruct Hin as [Hin _]. contradiction.
  Qed.

  (* get() read off the two files of the message *)
  Lemma get_run s id :
    run dexec (d_get dec_env dec_meta id) s =
    (s, match fget s (PMeta id) with
        | None => RMissing
        | Some mb =>
            match dec_meta mb with
            | None => RCorrupt
            | Some m =>
                match fget s (PEnv id) with
                | None => RMissing
                | Some eb =>
                    match dec_env eb with
                    | None => RCorrupt
                    | Some e => match accum_get (deliv_list m) (e_rcpts e) with
                                | Some l => RGot (with_rcpts e l) (m_att m)
                                | None => RIndexErr
                                end
                    end
                end
            end
        end).
  Proof.
    unfold d_get, read_meta. cbn [run dexec]. destruct (fget s (PMeta id)) as [mb|]; [|reflexivity].
    destruct (dec_meta mb) as [m|]; [|reflexivity]. cbn [run dexec]. destruct (fget s (PEnv id)) as [eb|]; [|reflexivity].
    destruct (dec_env eb) as [e|]; [|reflexivity]. destruct (accum_get (deliv_list m) (e_rcpts e)); reflexivity.
  Qed.

  Lemma get_run_nometa s id : fget s (PMeta id) = None -> run dexec (d_get dec_env dec_meta id) s = (s, RMissing).
  Proof. intros E. rewrite get_run, E. reflexivity. Qed.

  Lemma get_run_noenv s id m :
    fget s (PMeta id) = Some (enc_meta m) -> fget s (PEnv id) = None ->
    run dexec (d_get dec_env dec_meta id) s = (s, RMissing).
  Proof. intros E1 E2. rewrite get_run, E1, dec_enc_meta, E2. reflexivity. Qed.

  Lemma get_run_live s id e m :
    fget s (PMeta id) = Some (enc_meta m) -> fget s (PEnv id) = Some (enc_env e) ->
    run dexec (d_get dec_env dec_meta id) s =
    (s, match accum_get (deliv_list m) (e_rcpts e) with
        | Some l => RGot (with_rcpts e l) (m_att m)
        | None => RIndexErr
        end).
  Proof. intros E1 E2. rewrite get_run, E1, dec_enc_meta, E2, dec_enc_env. reflexivity. Qed.

  Lemma get_run_ext s s' id :
    fget s' (PMeta id) = fget s (PMeta id) -> fget s' (PEnv id) = fget s (PEnv id) ->
    snd (run dexec (d_get dec_env dec_meta id) s') = snd (run dexec (d_get dec_env dec_meta id) s).
  Proof. intros E1 E2. rewrite !get_run, E1, E2. reflexivity. Qed.

  Lemma disk_view_some s id en :
    disk_view dec_env dec_meta s id = Some en ->
    exists mb eb m e l, fget s (PMeta id) = Some mb /\ fget s (PEnv id) = Some eb /\
      dec_meta mb = Some m /\ dec_env eb = Some e /\ accum_get (deliv_list m) (e_rcpts e) = Some l /\
      en = mkEntry (with_rcpts e l) (m_ts m) (m_att m).
  Proof.
    unfold disk_view.
    destruct (fget s (PMeta id)) as [mb|]; [|discriminate]. destruct (fget s (PEnv id)) as [eb|]; [|discriminate].
    destruct (dec_meta mb) as [m|] eqn:Em; [|discriminate]. destruct (dec_env eb) as [e|] eqn:Ee; [|discriminate].
    destruct (accum_get (deliv_list m) (e_rcpts e)) as [l|] eqn:El; [|discriminate].
    intros H; inversion H. exists mb, eb, m, e, l. auto 6.
  Qed.

  Lemma get_run_view s id en :
    disk_view dec_env dec_meta s id = Some en ->
    run dexec (d_get dec_env dec_meta id) s = (s, RGot (en_env en) (en_att en)).
  Proof.
    intros H. destruct (disk_view_some s id en H) as (mb & eb & m & e & l & E1 & E2 & E3 & E4 & E5 & ->).
    rewrite get_run, E1, E3, E2, E4, E5. reflexivity.
  Qed.

  Lemma disk_view_ext s s' id :
    fget s' (PMeta id) = fget s (PMeta id) -> fget s' (PEnv id) = fget s (PEnv id) ->
    disk_view dec_env dec_meta s' id = disk_view dec_env dec_meta s id.
  Proof. intros E1 E2. unfold disk_view. rewrite E1, E2. reflexivity. Qed.
End DiskProofs.
