(* What the proofs about model/Queue.v share: the list and store primitives, then, in the order
   of the model, the lemmas through which an invariant proof meets each definition
   ([take_taskP], [add_queuedP], [dispatchP], [insort_split], [check_ready_cases], [wait_ready_cases],
   [dispatch_all_*]), what an invariant has to survive at the scheduler's own events
   ([tick_inv], [wakeup_inv]), and [run_inv]. *)
From Coq Require Import List NArith Bool.
From SV Require Import model.Queue proof.List_lemmas.
Import ListNotations.
Open Scope N_scope.

Lemma mem_In : forall x l, mem x l = true <-> In x l.
Proof.
  induction l as [|y l IH]; cbn; [split; [discriminate|tauto]|].
  rewrite orb_true_iff, IH, N.eqb_eq. split; intros [H|H]; auto.
Qed.

Lemma mem_false_In : forall x l, mem x l = false <-> ~ In x l.
Proof. intros. rewrite <- mem_In. destruct (mem x l); split; congruence. Qed.

Lemma mem_del_same : forall x l, mem x (del x l) = false.
Proof.
  induction l as [|y l IH]; cbn; [reflexivity|].
  destruct (N.eqb_spec x y); [exact IH|]. cbn. destruct (N.eqb_spec x y); [contradiction|exact IH].
Qed.

Lemma mem_del_other : forall x y l, x <> y -> mem x (del y l) = mem x l.
Proof.
  induction l as [|z l IH]; intro H; cbn; [reflexivity|].
  destruct (N.eqb_spec y z).
  - subst. destruct (N.eqb_spec x z); [contradiction|]. cbn. apply IH. exact H.
  - cbn. rewrite IH by exact H. reflexivity.
Qed.

Lemma mem_cons_other : forall j i l, j <> i -> mem j (i :: l) = mem j l.
Proof. intros j i l H. cbn. destruct (N.eqb_spec j i); [contradiction|reflexivity]. Qed.

Lemma In_del : forall x y l, In x (del y l) <-> In x l /\ x <> y.
Proof.
  intros x y l. rewrite <- !mem_In. destruct (N.eq_dec x y) as [E|E].
  - subst. rewrite mem_del_same. split; [discriminate|tauto].
  - rewrite mem_del_other by exact E. tauto.
Qed.

Lemma mem_ext : forall x l l', (In x l <-> In x l') -> mem x l = mem x l'.
Proof.
  intros x l l' H. destruct (mem x l') eqn:E.
  - apply mem_In, H, mem_In, E.
  - apply mem_false_In. intro Hi. apply H, mem_In in Hi. congruence.
Qed.

Lemma st_get_del_same : forall s i, st_get (st_del s i) i = None.
Proof.
  induction s as [|[j m] s IH]; intro i; cbn; [reflexivity|].
  destruct (N.eqb_spec i j); [apply IH|]. cbn. destruct (N.eqb_spec i j); [contradiction|apply IH].
Qed.

Lemma st_get_del_other : forall s i j, i <> j -> st_get (st_del s j) i = st_get s i.
Proof.
  induction s as [|[k m] s IH]; intros i j H; cbn; [reflexivity|].
  destruct (N.eqb_spec j k).
  - subst. destruct (N.eqb_spec i k); [contradiction|]. apply IH. exact H.
  - cbn. destruct (N.eqb_spec i k); [reflexivity|]. apply IH. exact H.
Qed.

Lemma st_get_del_none : forall s i j, st_get (st_del s i) j = None <-> j = i \/ st_get s j = None.
Proof.
  intros s i j. destruct (N.eq_dec j i) as [->|E].
  - rewrite st_get_del_same. tauto.
  - rewrite st_get_del_other by exact E. tauto.
Qed.

Lemma st_get_upd_other : forall s i j f, i <> j -> st_get (st_upd s j f) i = st_get s i.
Proof.
  induction s as [|[k m] s IH]; intros i j f H; cbn; [reflexivity|].
  destruct (N.eqb_spec j k).
  - subst. cbn. destruct (N.eqb_spec i k); [contradiction|reflexivity].
  - cbn. destruct (N.eqb_spec i k); [reflexivity|]. apply IH. exact H.
Qed.

Lemma st_get_upd_same : forall s i f, st_get (st_upd s i f) i = option_map f (st_get s i).
Proof.
  induction s as [|[k m] s IH]; intros i f; cbn; [reflexivity|].
  destruct (N.eqb_spec i k).
  - subst. cbn. rewrite N.eqb_refl. reflexivity.
  - cbn. destruct (N.eqb_spec i k); [contradiction|]. apply IH.
Qed.

Lemma st_get_upd_none : forall s i j f, st_get (st_upd s j f) i = None <-> st_get s i = None.
Proof.
  intros s i j f. destruct (N.eq_dec i j) as [E|E].
  - subst. rewrite st_get_upd_same. destruct (st_get s j); cbn; split; congruence.
  - rewrite st_get_upd_other by exact E. tauto.
Qed.

Lemma take_task_spec : forall p ts t rest, take_task p ts = Some (t, rest) ->
  p t = true /\ exists l1 l2, ts = l1 ++ t :: l2 /\ rest = l1 ++ l2.
Proof.
  induction ts as [|x ts IH]; intros t rest H; cbn in H; [discriminate|].
  destruct (p x) eqn:E.
  - inversion H; subst. split; [exact E|]. exists [], rest. split; reflexivity.
  - destruct (take_task p ts) as [[y r]|] eqn:T; [|discriminate].
    inversion H; subst. destruct (IH t r eq_refl) as [Hp [l1 [l2 [E1 E2]]]].
    split; [exact Hp|]. exists (x :: l1), l2. subst. split; reflexivity.
Qed.

Lemma take_task_first : forall p l1 t l2, (forall x, In x l1 -> p x = false) -> p t = true ->
  take_task p (l1 ++ t :: l2) = Some (t, l1 ++ l2).
Proof.
  induction l1 as [|x l1 IH]; intros t l2 Hl Ht; cbn.
  - rewrite Ht. reflexivity.
  - rewrite (Hl x (or_introl eq_refl)), IH; [reflexivity| |exact Ht]. intros y Hy. apply Hl. right. exact Hy.
Qed.

Inductive taken (p : task -> bool) (ts : list task) : option (task * list task) -> Prop :=
| taken_none : taken p ts None
| taken_some l1 t l2 : ts = l1 ++ t :: l2 -> p t = true -> taken p ts (Some (t, l1 ++ l2)).

Lemma take_taskP : forall p ts, taken p ts (take_task p ts).
Proof.
  intros p ts. destruct (take_task p ts) as [[t rest]|] eqn:T; [|constructor].
  apply take_task_spec in T. destruct T as [Hp [l1 [l2 [E1 E2]]]]. subst rest. constructor; assumption.
Qed.

Definition ids_of (q : task -> bool) (ts : list task) : list id := map task_id (filter q ts).

Lemma ids_of_app : forall q a b, ids_of q (a ++ b) = ids_of q a ++ ids_of q b.
Proof. intros. unfold ids_of. rewrite filter_app, map_app. reflexivity. Qed.

Lemma ids_of_cons : forall q t ts, ids_of q (t :: ts) = (if q t then [task_id t] else []) ++ ids_of q ts.
Proof. intros. unfold ids_of. cbn. destruct (q t); reflexivity. Qed.

Definition is_work (t : task) : bool := is_live t || is_remove t.
Definition live_ids := ids_of is_live.
Definition work_ids := ids_of is_work.
Definition all_ids (ts : list task) : list id := map task_id ts.

Lemma all_ids_app : forall a b, all_ids (a ++ b) = all_ids a ++ all_ids b.
Proof. intros. unfold all_ids. apply map_app. Qed.

(* _add_queued ignores an id that is in the timetable or being worked on *)
Definition queued_at (s : state) (ts : time) (i : id) : state :=
  mkState (s_store s) (insort (ts, i) (s_queued s)) (i :: s_qids s) (s_active s) (s_tasks s)
          (notified (s_sched s)) true (s_clock s) (s_next s) (g_acc s) (g_deliv s) (g_fail s) (g_atts s) (g_removed s).

Inductive added (s : state) (ts : time) (i : id) : state -> Prop :=
| added_old : mem i (s_qids s) || mem i (s_active s) = true -> added s ts i s
| added_new : mem i (s_qids s) = false -> mem i (s_active s) = false -> added s ts i (queued_at s ts i).

Lemma add_queuedP : forall s ts i, added s ts i (add_queued s ts i).
Proof.
  intros s ts i. unfold add_queued. destruct (mem i (s_qids s) || mem i (s_active s)) eqn:E; [constructor; exact E|].
  apply orb_false_iff in E. apply added_new; tauto.
Qed.

Lemma aq_new : forall s ts i, mem i (s_qids s) = false -> mem i (s_active s) = false ->
  add_queued s ts i = queued_at s ts i.
Proof. intros s ts i H1 H2. destruct (add_queuedP s ts i) as [E|]; [rewrite H1, H2 in E; discriminate E|reflexivity]. Qed.

Lemma aq_store : forall s ts i, s_store (add_queued s ts i) = s_store s.
Proof. intros. destruct (add_queuedP s ts i); reflexivity. Qed.
Lemma aq_active : forall s ts i, s_active (add_queued s ts i) = s_active s.
Proof. intros. destruct (add_queuedP s ts i); reflexivity. Qed.
Lemma aq_tasks : forall s ts i, s_tasks (add_queued s ts i) = s_tasks s.
Proof. intros. destruct (add_queuedP s ts i); reflexivity. Qed.
Lemma aq_clock : forall s ts i, s_clock (add_queued s ts i) = s_clock s.
Proof. intros. destruct (add_queuedP s ts i); reflexivity. Qed.
Lemma aq_next : forall s ts i, s_next (add_queued s ts i) = s_next s.
Proof. intros. destruct (add_queuedP s ts i); reflexivity. Qed.
Lemma aq_atts : forall s ts i, g_atts (add_queued s ts i) = g_atts s.
Proof. intros. destruct (add_queuedP s ts i); reflexivity. Qed.
Lemma aq_removed : forall s ts i, g_removed (add_queued s ts i) = g_removed s.
Proof. intros. destruct (add_queuedP s ts i); reflexivity. Qed.

(* _dispatch ignores an id that is being worked on *)
Inductive dispatched (s : state) (i : id) (c : cause) : state -> Prop :=
| dispatched_old : mem i (s_active s) = true -> dispatched s i c s
| dispatched_new : mem i (s_active s) = false ->
    dispatched s i c (set_tasks (set_active s (i :: s_active s)) (s_tasks s ++ [TDequeue i c])).

Lemma dispatchP : forall s i c, dispatched s i c (dispatch s i c).
Proof. intros s i c. unfold dispatch. destruct (mem i (s_active s)) eqn:E; constructor; exact E. Qed.

Lemma dispatch_new : forall s i c, mem i (s_active s) = false ->
  dispatch s i c = set_tasks (set_active s (i :: s_active s)) (s_tasks s ++ [TDequeue i c]).
Proof. intros s i c H. destruct (dispatchP s i c) as [E|]; [rewrite H in E; discriminate E|reflexivity]. Qed.

Lemma dispatch_clock : forall s i c, s_clock (dispatch s i c) = s_clock s.
Proof. intros. destruct (dispatchP s i c); reflexivity. Qed.
Lemma dispatch_sched : forall s i c, s_sched (dispatch s i c) = s_sched s.
Proof. intros. destruct (dispatchP s i c); reflexivity. Qed.
Lemma dispatch_atts : forall s i c, g_atts (dispatch s i c) = g_atts s.
Proof. intros. destruct (dispatchP s i c); reflexivity. Qed.
Lemma dispatch_queued : forall s i c, s_queued (dispatch s i c) = s_queued s.
Proof. intros. destruct (dispatchP s i c); reflexivity. Qed.

Lemma dispatch_marks : forall s i c, mem i (s_active (dispatch s i c)) = true.
Proof.
  intros s i c. destruct (dispatchP s i c) as [E|_]; [exact E|]. cbn. rewrite N.eqb_refl. reflexivity.
Qed.

Lemma dispatch_active_mono : forall s i c j, mem j (s_active s) = true -> mem j (s_active (dispatch s i c)) = true.
Proof.
  intros s i c j H. destruct (dispatchP s i c) as [_|_]; [exact H|]. cbn. rewrite H. apply orb_true_r.
Qed.

Lemma wait_ready_cases : forall s, wait_ready s = s \/ exists sc, wait_ready s = set_sched s sc false.
Proof.
  intro s. unfold wait_ready. destruct (s_queued s) as [|[t j] q]; [|destruct (s_clock s <? t); [|left; reflexivity]];
    destruct (s_wake s); right; eexists; reflexivity.
Qed.

Lemma insort_split : forall e q, exists l1 l2, q = l1 ++ l2 /\ insort e q = l1 ++ e :: l2.
Proof.
  intros e q. induction q as [|[t k] q IH]; cbn.
  - exists [], []. split; reflexivity.
  - destruct (fst e <? t).
    + exists [], ((t, k) :: q). split; reflexivity.
    + destruct IH as [l1 [l2 [E1 E2]]]. exists ((t, k) :: l1), l2. rewrite E2, E1. split; reflexivity.
Qed.

Lemma In_insort : forall x e q, In x (insort e q) <-> x = e \/ In x q.
Proof.
  intros x e q. destruct (insort_split e q) as [l1 [l2 [-> ->]]]. rewrite !in_app_iff. cbn.
  split; [intros [H|[H|H]]|intros [H|[H|H]]]; auto.
Qed.

Lemma In_qids_insort : forall j e q, In j (qids_of (insort e q)) <-> j = snd e \/ In j (qids_of q).
Proof.
  intros j e q. destruct (insort_split e q) as [l1 [l2 [-> ->]]]. unfold qids_of. rewrite !map_app, !in_app_iff. cbn.
  split; [intros [H|[H|H]]|intros [H|[H|H]]]; auto.
Qed.

Lemma qids_insort_nodup : forall e q, NoDup (qids_of q) -> ~ In (snd e) (qids_of q) -> NoDup (qids_of (insort e q)).
Proof.
  intros e q Hn Hi. destruct (insort_split e q) as [l1 [l2 [-> ->]]]. unfold qids_of in *. rewrite map_app in *.
  apply (NoDup_Add (Add_app (snd e) (map snd l1) (map snd l2))). split; assumption.
Qed.

Lemma due_prefix_spec : forall now q d r, due_prefix now q = (d, r) ->
  q = d ++ r /\ (forall x, In x d -> fst x <= now) /\ match r with [] => True | x :: _ => now < fst x end.
Proof.
  induction q as [|[t i] q IH]; intros d r H; cbn in H.
  - inversion H. repeat split. intros x [].
  - destruct (N.leb_spec t now) as [Hle|Hlt].
    + destruct (due_prefix now q) as [d0 r0]. inversion H; subst. destruct (IH d0 r eq_refl) as [A [B C]].
      split; [cbn; f_equal; exact A|]. split; [|exact C]. intros x [<-|Hx]; [exact Hle|apply B; exact Hx].
    + inversion H. split; [reflexivity|]. split; [intros x []|exact Hlt].
Qed.

Definition dispatch_all (f : time * id -> cause) (d : list (time * id)) (s : state) : state :=
  fold_left (fun s e => dispatch s (snd e) (f e)) d s.

Lemma check_ready_cases : forall s, exists d r,
  s_queued s = d ++ r /\ (forall x, In x d -> fst x <= s_clock s) /\
  match r with [] => True | x :: _ => s_clock s < fst x end /\
  check_ready s = match d with
                  | [] => s
                  | _ => set_queue (dispatch_all (fun e => CTimer (fst e)) d s) r (qids_of r)
                  end.
Proof.
  intro s. unfold check_ready. destruct (due_prefix (s_clock s) (s_queued s)) as [d r] eqn:Ed.
  apply due_prefix_spec in Ed. destruct Ed as [A [B C]]. exists d, r. destruct d; repeat split; assumption.
Qed.

Lemma step_flush : forall s, step s EFlush =
  set_queue (dispatch_all (fun _ => CFlush) (s_queued s) (set_sched s (notified (s_sched s)) false)) [] [].
Proof. reflexivity. Qed.

Lemma dispatch_all_pres : forall (P : state -> Prop) f d,
  (forall s e, In e d -> P s -> P (dispatch s (snd e) (f e))) -> forall s, P s -> P (dispatch_all f d s).
Proof.
  intros P f. unfold dispatch_all. induction d as [|e d IH]; intros Hp s H; cbn; [exact H|].
  apply IH; [intros s' e' He'; apply Hp; right; exact He'|apply Hp; [left; reflexivity|exact H]].
Qed.

Lemma dispatch_all_proj : forall {A} (p : state -> A), (forall s i c, p (dispatch s i c) = p s) ->
  forall f d s, p (dispatch_all f d s) = p s.
Proof. intros A p Hp f d. unfold dispatch_all. induction d as [|e d IH]; intro s; cbn; [reflexivity|]. rewrite IH. apply Hp. Qed.

Lemma dispatch_all_marks : forall f d s j, (mem j (s_active s) = true \/ In j (map snd d)) ->
  mem j (s_active (dispatch_all f d s)) = true.
Proof.
  intro f. unfold dispatch_all. induction d as [|e d IH]; intros s j H; cbn.
  - destruct H as [H|[]]. exact H.
  - apply IH. destruct H as [H|[<-|H]]; [left; apply dispatch_active_mono, H|left; apply dispatch_marks|right; exact H].
Qed.

Lemma dispatch_set_queue : forall s q qi i c, dispatch (set_queue s q qi) i c = set_queue (dispatch s i c) q qi.
Proof. intros. unfold dispatch. cbn [set_queue s_active]. destruct (mem i (s_active s)); reflexivity. Qed.

Lemma dispatch_all_set_queue : forall f d s q qi r qr,
  set_queue (dispatch_all f d (set_queue s q qi)) r qr = set_queue (dispatch_all f d s) r qr.
Proof.
  unfold dispatch_all. induction d as [|e d IH]; intros s q qi r qr; cbn; [reflexivity|]. rewrite dispatch_set_queue. apply IH.
Qed.

(* _dispatch never reads the timetable, so a batch taken off the front of the timetable can be
   seen as taken off and dispatched entry by entry; an invariant then needs one lemma for one
   entry, and one saying that recomputing queued_ids from the timetable is harmless. *)
Lemma dispatch_all_inv : forall (P : state -> Prop) f,
  (forall s, P s -> P (set_queue s (s_queued s) (qids_of (s_queued s)))) ->
  (forall s e q, P s -> s_queued s = e :: q -> P (set_queue (dispatch s (snd e) (f e)) q (qids_of q))) ->
  forall d r s, P s -> s_queued s = d ++ r -> P (set_queue (dispatch_all f d s) r (qids_of r)).
Proof.
  intros P f Hre Hone. induction d as [|e d IH]; intros r s H E; cbn in E.
  - rewrite <- E. apply Hre. exact H.
  - change (dispatch_all f (e :: d) s) with (dispatch_all f d (dispatch s (snd e) (f e))).
    rewrite <- (dispatch_all_set_queue f d _ (d ++ r) (qids_of (d ++ r))).
    apply IH; [apply Hone; assumption|reflexivity].
Qed.

Lemma tick_inv : forall (P : state -> Prop) s, P s ->
  (forall s' sc, P s' -> P (set_sched s' sc false)) ->
  (forall d r, s_queued s = d ++ r -> (forall x, In x d -> fst x <= s_clock s) ->
     P (set_queue (dispatch_all (fun e => CTimer (fst e)) d s) r (qids_of r))) ->
  P (step s ETick).
Proof.
  intros P s H Hsc Hd. cbn [step]. destruct (s_sched s); try exact H.
  assert (Hc : P (check_ready s)).
  { destruct (check_ready_cases s) as [d [r [E [Hdue [_ ->]]]]]. destruct d; [exact H|exact (Hd _ r E Hdue)]. }
  destruct (wait_ready_cases (check_ready s)) as [->|[sc ->]]; [exact Hc|exact (Hsc _ sc Hc)].
Qed.

Lemma wakeup_inv : forall (P : state -> Prop) s, P s -> P (set_sched s SRun false) -> P (step s EWakeup).
Proof. intros P s H H'. cbn [step]. destruct (s_sched s) as [|[t|]|]; auto. destruct (t <=? s_clock s); auto. Qed.

Lemma run_inv : forall P : state -> Prop, (forall s e, P s -> P (step s e)) -> forall es s, P s -> P (run es s).
Proof. intro P. exact (fold_left_inv step P). Qed.

Ltac proj := cbn [s_store s_queued s_qids s_active s_tasks s_sched s_wake s_clock s_next
                  g_acc g_deliv g_fail g_atts g_removed
                  set_tasks set_store set_active set_queue set_sched log_deliv log_fail log_att q_remove queued_at].
