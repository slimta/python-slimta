(* Proofs for property C11 over model/RelayClient.v, relay by relay: pipe, HTTP, MX (destination, then
   the cache), each read off its definition; then the SMTP / LMTP client.  The client is a state monad:
   `ok m s Q E` is a Hoare triple with a postcondition E for aborts, and the invariant Inv k says that
   every filled reply slot holds what the script answers and that every result set so far is justified
   (Just) by replies to the request it belongs to.  The specs of the client's steps thread Inv k, mono
   (no reply slot is forgotten) and the values of pend and lr; Quiet k is the state between two requests.
   Aborts are specified by
     EA k     the abort has a Cause in request k, slots and results are as Inv k wants them, and a
              relay error leaves all of Inv k (its except arm goes on using the connection);
     EN k     EA k for an abort that is neither a relay error nor a foreign exception;
     EF       Cause and justified results only: what the except arms of _run need;
   and the handshake keeps HP k s0: Inv k, nothing pending, the results of s0, lr empty if it was.
   run_results_ok carries the invariant through a whole connection; smtp_final_inv reads every
   report off it.  The examples of the client come last, after the fixtures they share. *)
From Coq Require Import List NArith Bool Lia.
From SV Require Import gen.UnicodeTables model.RelayClient proof.List_lemmas.
Import ListNotations.
Open Scope N_scope.

Definition good_final (f : final) : Prop := f = FDelivered \/ f = FPermanent \/ f = FTransient.

Lemma of_cls_good c : good_final (of_cls c).
Proof. destruct c; unfold good_final; cbn; auto. Qed.
Lemma of_cls_not_delivered c : of_cls c <> FDelivered.
Proof. destruct c; discriminate. Qed.
Lemma of_rres_good r : good_final (of_rres r).
Proof. destruct r; [left; reflexivity | apply of_cls_good]. Qed.
Lemma of_rres_delivered r : of_rres r = FDelivered -> r = Delivered.
Proof. destruct r as [|c]; [reflexivity | intros H; now apply of_cls_not_delivered in H]. Qed.

Lemma dget_dset {V} (d : list (N * V)) k v k' :
  dget (dset d k v) k' = if k =? k' then Some v else dget d k'.
Proof.
  induction d as [|[k0 v0] d IH]; cbn; [reflexivity|].
  destruct (N.eqb_spec k0 k) as [->|E]; cbn; [now destruct (k =? k')|].
  rewrite IH. destruct (N.eqb_spec k0 k') as [<-|E']; [|reflexivity].
  now destruct (N.eqb_spec k k0) as [->|_].
Qed.

Lemma exec_process_nz k st so se : st <> 0 -> exec_process k st so se = Failed (raise_error k st so se).
Proof. intros H. unfold exec_process. now destruct (N.eqb_spec st 0). Qed.
Lemma exec_delivered k st so se : exec_process k st so se = Delivered -> st = 0.
Proof. unfold exec_process. now destruct (N.eqb_spec st 0). Qed.

Lemma pipe_all_length k ps : length (pipe_all k ps) = length ps.
Proof.
  induction ps as [|p ps IH]; cbn; [reflexivity|].
  destruct p; cbn; [now rewrite IH | now rewrite map_length].
Qed.
Lemma pipe_all_some k ps i : (i < length ps)%nat -> nth_error (pipe_all k ps) i <> None.
Proof. intros H. apply nth_error_Some. now rewrite pipe_all_length. Qed.

Lemma pipe_all_sound k ps i :
  nth_error (pipe_all k ps) i = Some Delivered ->
  exists so se, nth_error ps i = Some (Exited 0 so se).
Proof.
  revert i; induction ps as [|p ps IH]; intros i H; [destruct i; discriminate|].
  destruct p as [st so se|].
  - destruct i as [|i]; cbn in H.
    + injection H as H. apply exec_delivered in H. subst. now exists so, se.
    + cbn. now apply IH.
  - cbn [pipe_all] in H. apply nth_error_map_const in H. discriminate.
Qed.

Lemma pipe_all_timeout k ps i j r :
  (j <= i)%nat -> nth_error ps j = Some TimedOut ->
  nth_error (pipe_all k ps) i = Some r -> r = Failed Trans.
Proof.
  revert i j; induction ps as [|p ps IH]; intros i j Hle Hj H; [destruct j; discriminate|].
  destruct p as [st so se|].
  - destruct j as [|j]; [discriminate|]. destruct i as [|i]; [exfalso; lia|].
    cbn in Hj, H. apply (IH i j); [lia | exact Hj | exact H].
  - cbn [pipe_all] in H. now apply nth_error_map_const in H.
Qed.

Lemma pipe_all_exit k ps i st so se :
  (forall j, (j < i)%nat -> nth_error ps j <> Some TimedOut) ->
  nth_error ps i = Some (Exited st so se) ->
  nth_error (pipe_all k ps) i = Some (exec_process k st so se).
Proof.
  revert i; induction ps as [|p ps IH]; intros i Hno Hi; [destruct i; discriminate|].
  destruct i as [|i].
  - cbn in Hi. injection Hi as ->. reflexivity.
  - destruct p as [st' so' se'|].
    + cbn. apply IH; [|exact Hi]. intros j Hj. apply (Hno (S j)). lia.
    + exfalso. apply (Hno 0%nat); [lia | reflexivity].
Qed.

Lemma pipe_final_eq k (per : bool) ps i :
  pipe_final (pipe_attempt k per ps) i =
  match nth_error (pipe_all k ps) (if per then i else 0%nat) with
  | Some r => of_rres r
  | None => if per then FNoResult else FTransient
  end.
Proof.
  destruct per; [reflexivity|]. destruct ps as [|[st so se|] ps]; try reflexivity.
  cbn. now destruct (exec_process k st so se).
Qed.

Lemma pipe_final_timeout k (per : bool) ps i j' :
  (j' <= if per then i else 0)%nat -> nth_error ps j' = Some TimedOut ->
  (i < length ps)%nat \/ per = false ->
  pipe_final (pipe_attempt k per ps) i = FTransient.
Proof.
  intros Hle Hj' Hlen. rewrite pipe_final_eq.
  destruct (nth_error (pipe_all k ps) _) as [r|] eqn:E; [now rewrite (pipe_all_timeout k ps _ j' r Hle Hj' E)|].
  destruct per; [|reflexivity]. destruct Hlen as [Hlen|]; [|discriminate]. now apply (pipe_all_some k) in Hlen.
Qed.

(* re.match: the pattern is anchored at the beginning of the text *)
Lemma perm_pattern_prefix t :
  perm_pattern t = true -> exists d rest, t = 53 :: 46 :: d :: rest /\ udigit d = true.
Proof.
  (* the match on the numerals 53 and 46 is a match on their binary digits *)
  unfold perm_pattern. destruct t as [|[|p] t]; try discriminate. repeat (destruct p as [p|p|]; try discriminate).
  destruct t as [|[|q] t]; try discriminate. repeat (destruct q as [q|q|]; try discriminate).
  unfold digits1. destruct t as [|d rest]; [discriminate|].
  destruct (udigit d) eqn:Ed; [eauto | discriminate].
Qed.
Example pipe_example :
  pipe_attempt KMaildrop false [Exited 75 [109] []] = PExc Trans /\
  pipe_attempt KPipe true [Exited 0 [] []; Exited 1 [53;46;49;46;49;32;110;111] []; TimedOut; Exited 0 [] []]
  = PMap [Delivered; Failed Perm; Failed Trans; Failed Trans].
Proof. vm_compute. split; reflexivity. Qed.
Example pipe_multiline_example :
  raise_error KPipe 1 [116;101;109;112;10;53;46;49;46;49;32;120] [] = Trans /\
  raise_error KPipe 1 [53;46;49;46;49;32;120;10;116;101;109;112] [] = Perm.
Proof. vm_compute. split; reflexivity. Qed.

Lemma http_not_2xx status h : ~ (200 <= status < 300) ->
  http_attempt (HResp status h) =
  match header_class h with
  | Some c => HExc (factory c)
  | None => if (400 <=? status) && (status <? 500) then HExc Perm else HExc Trans
  end.
Proof.
  intros H. unfold http_attempt.
  destruct (N.leb_spec 200 status), (N.ltb_spec status 300); try reflexivity. lia.
Qed.
Lemma http_exc status h : ~ (200 <= status < 300) -> exists c, http_attempt (HResp status h) = HExc c.
Proof.
  intros H. rewrite (http_not_2xx status h H).
  destruct (header_class h); [|destruct (_ && _)]; eauto.
Qed.
Lemma header_class_4xx c b e : 400 <= c <= 499 -> header_class (HCode c b e) = Some C4.
Proof.
  intros H. unfold header_class. rewrite !(proj2 (N.ltb_ge _ _)) by lia. cbn.
  now rewrite (proj2 (N.ltb_lt _ _)) by lia.
Qed.
Lemma header_class_5xx c b e : 500 <= c <= 599 -> header_class (HCode c b e) = Some C5.
Proof. intros H. unfold header_class. now rewrite !(proj2 (N.ltb_ge _ _)) by lia. Qed.

Example http_example :
  http_attempt (HResp 503 (HCode 450 true E5)) = HExc Trans /\
  http_attempt (HResp 500 (HCode 550 true E4)) = HExc Perm /\
  http_attempt (HResp 204 (HCode 250 false ENone)) = HOk /\
  http_attempt (HResp 400 (HCode 600 false ENone)) = HExc Perm.
Proof. vm_compute. repeat split; reflexivity. Qed.

Lemma after_last_at_none t : after_last_at t = None <-> ~ In 64 t.
Proof.
  induction t as [|c t IH]; cbn; [tauto|].
  destruct (after_last_at t) as [d|].
  - split; [discriminate|]. intros H. exfalso. apply H. right.
    destruct (in_dec N.eq_dec 64 t) as [Hi|Hn]; [exact Hi | now apply IH in Hn].
  - destruct (N.eqb_spec c 64) as [->|Hc].
    + split; [discriminate|]. intros H. exfalso. apply H. now left.
    + split; [|reflexivity]. intros _ [H|H]; [now apply Hc | exact (proj1 IH eq_refl H)].
Qed.

Fixpoint sorted_prio (l : list (N * N)) : Prop :=
  match l with
  | [] => True
  | (p, _) :: l' => (forall q g, In (q, g) l' -> p <= q) /\ sorted_prio l'
  end.

Lemma mx_insert_in p h l x : In x (mx_insert p h l) <-> (p, h) = x \/ In x l.
Proof.
  induction l as [|[q g] l IH]; cbn; [tauto|].
  destruct (p <? q); cbn; [tauto|]. rewrite IH. tauto.
Qed.
Lemma mx_insert_length p h l : length (mx_insert p h l) = S (length l).
Proof.
  induction l as [|[q g] l IH]; cbn; [reflexivity|]. destruct (p <? q); cbn; [reflexivity | now rewrite IH].
Qed.
Lemma mx_insert_sorted p h l : sorted_prio l -> sorted_prio (mx_insert p h l).
Proof.
  induction l as [|[q g] l IH]; cbn; [intros _; split; [intros ? ? []|exact I]|].
  intros [Hq Hs]. destruct (N.ltb_spec p q) as [E|E]; cbn.
  - split; [|split; assumption]. intros q' g' [H|H]; [injection H as <- <-; lia|].
    specialize (Hq _ _ H). lia.
  - split; [|apply IH, Hs]. intros q' g' H. apply mx_insert_in in H. destruct H as [H|H].
    + now injection H as <- <-.
    + eapply Hq, H.
Qed.

Lemma mx_sort_acc ans : forall acc,
  let r := fold_left (fun a r => mx_insert (fst r) (snd r) a) ans acc in
  (forall x, In x r <-> In x ans \/ In x acc) /\ (sorted_prio acc -> sorted_prio r) /\
  length r = (length ans + length acc)%nat.
Proof.
  induction ans as [|[p h] ans IH]; intros acc; cbn [fold_left fst snd]; cbv zeta.
  - cbn. tauto.
  - destruct (IH (mx_insert p h acc)) as (H1 & H2 & H3). split; [|split].
    + intros x. rewrite H1, mx_insert_in. cbn. tauto.
    + intros Hs. apply H2, mx_insert_sorted, Hs.
    + rewrite H3, mx_insert_length. cbn. lia.
Qed.
Lemma mx_sort_in ans x : In x (mx_sort ans) <-> In x ans.
Proof. rewrite (proj1 (mx_sort_acc ans []) x). cbn. tauto. Qed.
Lemma mx_sort_sorted ans : sorted_prio (mx_sort ans).
Proof. exact (proj1 (proj2 (mx_sort_acc ans [])) I). Qed.
Lemma mx_sort_length l : length (mx_sort l) = length l.
Proof. unfold mx_sort. rewrite (proj2 (proj2 (mx_sort_acc l []))). cbn. lia. Qed.

Lemma choose_mx_some x recs a : choose_mx (x :: recs) a <> None.
Proof.
  unfold choose_mx. intros H. apply nth_error_None in H.
  assert (a mod N.of_nat (length (x :: recs)) < N.of_nat (length (x :: recs))) by (apply N.mod_lt; cbn; lia).
  lia.
Qed.
Lemma mx_finish_cases r n :
  (mx_finish r n = MxPerm /\ (mr_records r = None \/ mr_records r = Some [])) \/
  (exists x l d, mr_records r = Some (x :: l) /\ choose_mx (x :: l) n = Some d /\ mx_finish r n = MxRelay d).
Proof.
  unfold mx_finish. destruct (mr_records r) as [[|x l]|]; [auto | | auto].
  destruct (choose_mx (x :: l) n) as [d|] eqn:E; [right; eauto 6|].
  now apply choose_mx_some in E.
Qed.

Lemma mx_attempt_eq rcpt0 forced mx a n :
  mx_attempt rcpt0 forced mx a n =
  match after_last_at rcpt0 with
  | None => MxPerm
  | Some _ => if forced then MxRelay (DHost 0)
              else match mx_records mx a with
                   | inr _ => MxTrans
                   | inl recs => mx_finish (mkMxrec recs 0) n
                   end
  end.
Proof.
  unfold mx_attempt, mx_finish. destruct (after_last_at rcpt0); [|reflexivity].
  destruct forced; [reflexivity|]. now destruct (mx_records mx a) as [[[|]|]|].
Qed.
Lemma mx_attempt_no_at rcpt0 forced mx a n : ~ In 64 rcpt0 -> mx_attempt rcpt0 forced mx a n = MxPerm.
Proof. intros H. rewrite mx_attempt_eq. now rewrite (proj2 (after_last_at_none rcpt0) H). Qed.
Lemma mx_attempt_at rcpt0 mx a n : In 64 rcpt0 ->
  mx_attempt rcpt0 false mx a n =
  match mx_records mx a with inr _ => MxTrans | inl recs => mx_finish (mkMxrec recs 0) n end.
Proof.
  intros H. rewrite mx_attempt_eq. destruct (after_last_at rcpt0) eqn:E; [reflexivity|].
  now apply after_last_at_none in E.
Qed.

(* a destination is only ever one the resolver answered with: an MX host from the answer
   (chosen by attempts modulo the number of records, records in ascending preference), or the
   domain itself when there is no MX record but an A record *)
Theorem mx_destination rcpt0 mx a attempts d :
  mx_attempt rcpt0 false mx a attempts = MxRelay d ->
  (exists l, mx = DnsOk l /\ l <> [] /\
     nth_error (map (fun r => DHost (snd r)) (mx_sort l))
               (N.to_nat (attempts mod N.of_nat (length l))) = Some d /\
     sorted_prio (mx_sort l) /\ (forall x, In x (mx_sort l) <-> In x l)) \/
  (mx = DnsNotFound /\ exists l, a = DnsOk l /\ l <> [] /\ d = DDomain).
Proof.
  rewrite mx_attempt_eq. destruct (after_last_at rcpt0) as [dom|]; [|discriminate].
  destruct (mx_records mx a) as [recs|] eqn:Er; [|discriminate]. intros H.
  destruct (mx_finish_cases (mkMxrec recs 0) attempts) as [[F _]|(x & l & d' & Hr & Hc & F)];
    rewrite F in H; [discriminate|]. injection H as ->. cbn in Hr. subst recs. unfold choose_mx in Hc.
  unfold mx_records in Er. destruct mx as [ans| |]; [| |discriminate].
  - injection Er as Er. rewrite <- Er, map_length, mx_sort_length in Hc. left. exists ans.
    split; [reflexivity|]. split; [intros ->; discriminate|]. split; [exact Hc|].
    split; [apply mx_sort_sorted | intros y; apply mx_sort_in].
  - destruct a as [l0| |]; try discriminate. injection Er as Er. right. split; [reflexivity|].
    exists l0. split; [reflexivity|]. split; [intros ->; discriminate|].
    rewrite <- Er in Hc. now apply nth_error_map_const in Hc.
Qed.

Example mx_example :
  mx_attempt [117;64;100] false (DnsOk [(20, 3); (10, 1); (10, 2)]) (DnsOk [tt]) 4 = MxRelay (DHost 2) /\
  mx_attempt [117;64;100] false DnsNotFound (DnsOk [tt]) 0 = MxRelay DDomain /\
  mx_attempt [117] false (DnsOk [(10, 1)]) (DnsOk [tt]) 0 = MxPerm.
Proof. vm_compute. repeat split; reflexivity. Qed.

(* a record that counts as fresh always holds usable records: only successful, non-empty lookups
   are ever given an expiration *)
Definition mx_usable (r : mxrec) : Prop :=
  mr_exp r <> 0 -> exists x recs, mr_records r = Some (x :: recs).
Definition mx_cache_ok (cache : list (N * mxrec)) : Prop :=
  forall d r, dget cache d = Some r -> mx_usable r.

Lemma mx_cached_usable cache d :
  mx_cache_ok cache -> mx_usable (match dget cache d with Some r => r | None => mxrec0 end).
Proof. intros Hok. destruct (dget cache d) as [r|] eqn:E; [exact (Hok d r E) | intros H; now elim H]. Qed.

Lemma mx_resolve_usable st recs e : mx_resolve st = inl (recs, e) -> mx_usable (mkMxrec recs e).
Proof.
  unfold mx_resolve, mx_usable. cbn. destruct (s_mx st) as [l| |]; [| |discriminate].
  - intros [= <- <-] He. destruct l as [|p l]; [contradiction|].
    destruct (map (fun r => DHost (snd r)) (mx_sort (p :: l))) as [|x l'] eqn:E; [|eauto].
    apply (f_equal (@length _)) in E. rewrite map_length, mx_sort_length in E. discriminate.
  - destruct (s_a st) as [l| |]; [| |discriminate]; intros [= <- <-] He; [|contradiction].
    destruct l as [|u l]; [contradiction | cbn; eauto].
Qed.

Lemma mx_step_keeps cache st :
  mx_cache_ok cache -> mx_cache_ok (snd (mx_attempt_st cache st)).
Proof.
  intros Hok. unfold mx_attempt_st. destruct (s_domain st) as [d|]; [|exact Hok].
  pose proof (mx_cached_usable cache d Hok) as Hr.
  set (r := match dget cache d with Some r => r | None => mxrec0 end) in *.
  assert (Hset : forall r', mx_usable r' -> mx_cache_ok (dset cache d r')).
  { intros r' Hr' d0 r0. rewrite dget_dset. destruct (d =? d0); [intros [= <-]; exact Hr' | apply Hok]. }
  destruct (mx_expired r (s_now st)); [|now apply Hset].
  destruct (mx_resolve st) as [[recs e]|[]] eqn:E; apply Hset; [|exact Hr].
  eapply mx_resolve_usable, E.
Qed.
Lemma mx_cache_after_ok steps : mx_cache_ok (mx_cache_after steps).
Proof. apply (fold_left_inv _ mx_cache_ok); [intros c st; apply mx_step_keeps | intros d r; discriminate]. Qed.

(* after any history of attempts on one MxSmtpRelay: the classification of an attempt for domain d is
   the one its OWN resolver answers call for, except for the documented caching of successful lookups *)
Theorem mx_error_not_cached steps st d :
  s_domain st = Some d ->
  let cache := mx_cache_after steps in
  let r := match dget cache d with Some r => r | None => mxrec0 end in
  let '(o, asked, cache') := mx_attempt_st cache st in
  (* the resolver is asked exactly when no fresh record is cached *)
  asked = mx_expired r (s_now st) /\
  (* a resolver error: transient, the record is left as it was, so the next attempt asks again *)
  (asked = true -> mx_resolve st = inr tt ->
     o = MxTrans /\ dget cache' d = Some r /\ forall now', s_now st <= now' -> mx_expired r now' = true) /\
  (* transient only on a resolver error of this very attempt *)
  (o = MxTrans -> asked = true /\ mx_resolve st = inr tt) /\
  (* permanent only if the resolver, asked in this very attempt, answered that there is nothing *)
  (o = MxPerm -> asked = true /\ exists e, mx_resolve st = inl (None, e) \/ mx_resolve st = inl (Some [], e)) /\
  (* a fresh cached record: used as it is *)
  (asked = false -> o = mx_finish r (s_attempts st) /\ exists dst, o = MxRelay dst).
Proof.
  intros Hd. cbn zeta. pose proof (mx_cached_usable _ d (mx_cache_after_ok steps)) as Hr.
  unfold mx_attempt_st. rewrite Hd.
  set (r := match dget (mx_cache_after steps) d with Some r => r | None => mxrec0 end) in *.
  destruct (mx_expired r (s_now st)) eqn:Eexp.
  - destruct (mx_resolve st) as [[recs e]|[]] eqn:Eres.
    + split; [reflexivity|]. split; [discriminate|].
      destruct (mx_finish_cases (mkMxrec recs e) (s_attempts st)) as [[-> Hn]|(x & l & dst & _ & _ & ->)].
      * split; [discriminate|]. split; [|discriminate]. intros _. split; [reflexivity|]. exists e.
        cbn in Hn. destruct Hn as [-> | ->]; auto.
      * repeat split; discriminate.
    + split; [reflexivity|]. split; [|split; [auto | split; discriminate]].
      intros _ _. split; [reflexivity|]. split; [now rewrite dget_dset, N.eqb_refl|].
      intros now' Hle. unfold mx_expired in *. apply orb_true_iff in Eexp as [E|E]; apply orb_true_iff;
        [now left | right]. apply N.leb_le in E. apply N.leb_le. lia.
  -
    assert (He : mr_exp r <> 0).
    { intros E. unfold mx_expired in Eexp. now rewrite E in Eexp. }
    destruct (mx_finish_cases r (s_attempts st)) as [[_ [Hn|Hn]]|(x & l & dst & _ & _ & Hf)];
      [destruct (Hr He) as (x & l & Hx); congruence..|].
    rewrite Hf. split; [reflexivity|]. split; [discriminate|]. split; [discriminate|].
    split; [discriminate|]. intros _. split; [reflexivity | eauto].
Qed.

Example mx_seq_example :
  let fail := mkMxStep (Some 1) 100 DnsFail DnsFail 60 0 in
  let good := mkMxStep (Some 1) 105 (DnsOk [(10, 7)]) (DnsOk [tt]) 60 1 in
  let later := mkMxStep (Some 1) 120 DnsFail DnsFail 60 2 in
  let expired := mkMxStep (Some 1) 200 DnsFail DnsFail 60 3 in
  mx_run [] [fail; fail; good; later; expired] =
  [(MxTrans, true); (MxTrans, true); (MxRelay (DHost 7), true); (MxRelay (DHost 7), false); (MxTrans, true)].
Proof. vm_compute. reflexivity. Qed.

Definition ok {A} (m : M A) (s : st) (Q : A -> st -> Prop) (E : abort -> st -> Prop) : Prop :=
  match m s with (inl a, s') => Q a s' | (inr e, s') => E e s' end.

Lemma ok_ret {A} (a : A) s (Q : A -> st -> Prop) E : Q a s -> ok (mret a) s Q E.
Proof. intros H; exact H. Qed.
Lemma ok_raise {A} e s (Q : A -> st -> Prop) (E : abort -> st -> Prop) : E e s -> ok (@mraise A e) s Q E.
Proof. intros H; exact H. Qed.
Lemma ok_bind {A B} (m : M A) (f : A -> M B) s (Q : A -> st -> Prop) (R : B -> st -> Prop) E :
  ok m s Q E -> (forall a s', Q a s' -> ok (f a) s' R E) -> ok (mbind m f) s R E.
Proof.
  unfold ok, mbind. destruct (m s) as [[a|e] s']; intros H1 H2; [apply H2, H1 | exact H1].
Qed.
Lemma ok_bind_eq {A B} (m : M A) (f : A -> M B) s a s1 (Q : B -> st -> Prop) E :
  m s = (inl a, s1) -> ok (f a) s1 Q E -> ok (mbind m f) s Q E.
Proof. unfold ok, mbind. now intros ->. Qed.
Lemma ok_bind_raise {A B} (m : M A) (f : A -> M B) s e s1 (Q : B -> st -> Prop) (E : abort -> st -> Prop) :
  m s = (inr e, s1) -> E e s1 -> ok (mbind m f) s Q E.
Proof. unfold ok, mbind. now intros ->. Qed.
Lemma ok_assoc {A B C} (m : M A) (f : A -> M B) (g : B -> M C) s (Q : C -> st -> Prop) E :
  ok (mbind (mbind m f) g) s Q E <-> ok (mbind m (fun a => mbind (f a) g)) s Q E.
Proof. unfold ok, mbind. now destruct (m s) as [[a|e] s1]. Qed.
Lemma ok_weaken {A} (m : M A) s (Q Q' : A -> st -> Prop) (E E' : abort -> st -> Prop) :
  ok m s Q E -> (forall a s', Q a s' -> Q' a s') -> (forall e s', E e s' -> E' e s') -> ok m s Q' E'.
Proof. unfold ok. destruct (m s) as [[a|e] s']; intros H HQ HE; auto. Qed.
Lemma ok_catch {A} (m : M A) (handles : abort -> bool) (h : abort -> M A) s (Q : A -> st -> Prop) (E E0 : abort -> st -> Prop) :
  ok m s Q E0 ->
  (forall e s', E0 e s' -> if handles e then ok (h e) s' Q E else E e s') ->
  ok (mcatch m handles h) s Q E.
Proof.
  unfold ok, mcatch. destruct (m s) as [[a|e] s']; intros H1 H2; [exact H1|].
  specialize (H2 e s' H1). destruct (handles e); exact H2.
Qed.
Lemma ok_get {A} (f : st -> A) s (Q : A -> st -> Prop) E : Q (f s) s -> ok (mget f) s Q E.
Proof. intros H; exact H. Qed.

Lemma stage_eqb_refl a : stage_eqb a a = true.
Proof. destruct a; cbn; now rewrite ?N.eqb_refl. Qed.
Lemma stage_eqb_eq a b : stage_eqb a b = true -> a = b.
Proof.
  destruct a, b; try discriminate; cbn; try reflexivity;
    rewrite ?andb_true_iff, ?N.eqb_eq; intuition congruence.
Qed.

Lemma read_C2 o c : read_reply o = inl c -> (o = R2 <-> c = C2).
Proof. destruct o; intros [= <-]; split; congruence. Qed.

Lemma outcome_of_code_class n c : read_reply (outcome_of_code n) = inl c ->
  match c with
  | C2 => 100 <= n < 300 | C3 => 300 <= n < 400 | C4 => 400 <= n < 500
  | C500 => n = 500 | C5 => 500 < n < 600
  end.
Proof.
  unfold outcome_of_code.
  destruct (N.ltb_spec n 100); [discriminate|]. destruct (N.ltb_spec n 300); [intros [= <-]; lia|].
  destruct (N.ltb_spec n 400); [intros [= <-]; lia|]. destruct (N.ltb_spec n 500); [intros [= <-]; lia|].
  destruct (N.eqb_spec n 500); [intros [= <-]; lia|].
  destruct (N.ltb_spec n 600); [intros [= <-]; lia | discriminate].
Qed.

Lemma dget_apply_cases {V} ups : forall (d : list (N * V)) a,
  (exists v, In (a, v) ups /\ dget (apply_updates d ups) a = Some v) \/
  ((forall v, ~ In (a, v) ups) /\ dget (apply_updates d ups) a = dget d a).
Proof.
  unfold apply_updates. induction ups as [|[k v] ups IH]; intros d a; cbn [fold_left fst snd].
  - right. split; [intros v []|reflexivity].
  - destruct (IH (dset d k v) a) as [(w & Hin & Hw)|[Hno Hw]].
    + left. exists w. split; [now right | exact Hw].
    + rewrite dget_dset in Hw. destruct (N.eqb_spec k a) as [->|Hk].
      * left. exists v. split; [now left | exact Hw].
      * right. split; [|exact Hw]. intros w [[= ? _]|Hin]; [contradiction | exact (Hno w Hin)].
Qed.

Lemma dget_fromkeys_aux : forall addrs (d : list (N * option tres)) a,
  dget (fold_left (fun d a => match dget d a with Some _ => d | None => dset d a None end) addrs d) a =
  match dget d a with
  | Some v => Some v
  | None => if existsb (N.eqb a) addrs then Some None else None
  end.
Proof.
  induction addrs as [|b addrs IH]; intros d a; cbn [fold_left existsb]; [destruct (dget d a); reflexivity|].
  rewrite IH. destruct (dget d b) as [vb|] eqn:Eb.
  - destruct (dget d a) as [va|] eqn:Ea; [reflexivity|].
    destruct (N.eqb_spec a b) as [->|E]; [congruence | reflexivity].
  - rewrite dget_dset, (N.eqb_sym b a). destruct (N.eqb_spec a b) as [->|E]; [now rewrite Eb | reflexivity].
Qed.
Lemma dget_fromkeys addrs a :
  dget (fromkeys addrs) a = if existsb (N.eqb a) addrs then Some None else None.
Proof. unfold fromkeys. now rewrite dget_fromkeys_aux. Qed.

Lemma tget_table addrs ups a : In a addrs ->
  let r := tget (apply_updates (fromkeys addrs) ups) a in
  (exists w, In (a, w) ups /\ r = match w with Some t => t | None => TDelivered end) \/
  ((forall w, ~ In (a, w) ups) /\ r = TDelivered).
Proof.
  intros Ha. cbv zeta. unfold tget.
  destruct (dget_apply_cases ups (fromkeys addrs) a) as [(w & Hin & ->)|[Hno ->]]; [left; eauto|].
  right. split; [exact Hno|]. rewrite dget_fromkeys.
  now rewrite (proj2 (existsb_exists _ _) (ex_intro _ a (conj Ha (N.eqb_refl a)))).
Qed.

Lemma in_rcpt_updates addrs errs a w :
  In (a, w) (rcpt_updates addrs errs) <->
  exists c j, w = Some (TFailed c) /\ nth_error addrs j = Some a /\ nth_error errs j = Some (Some c).
Proof.
  unfold rcpt_updates. rewrite in_flat_map. split.
  - intros ([a' o] & Hin & Hx). cbn in Hx. destruct o as [c|]; [|destruct Hx].
    destruct Hx as [Hx|[]]. injection Hx as -> <-. apply in_combine_nth in Hin.
    destruct Hin as (j & H1 & H2). eauto 6.
  - intros (c & j & -> & H1 & H2). exists (a, Some c). split; [apply in_combine_nth; eauto | now left].
Qed.

(* `dict(zip(recipients, rcpt_errors))`: the class of some occurrence of the same address *)
Lemma fail_table_char addrs (l : list cls) a i :
  length l = length addrs -> nth_error addrs i = Some a ->
  exists c j, tget (apply_updates [] (combine addrs (map (fun c => Some (TFailed c)) l))) a = TFailed c /\
              nth_error addrs j = Some a /\ nth_error l j = Some c.
Proof.
  intros Hlen Hi. unfold tget.
  destruct (dget_apply_cases (combine addrs (map (fun c => Some (TFailed c)) l)) [] a)
    as [(w & Hin & ->)|[Hno _]].
  - apply in_combine_nth in Hin. destruct Hin as (j & H1 & H2). rewrite nth_error_map in H2.
    destruct (nth_error l j) as [c|] eqn:Ej; [|discriminate]. injection H2 as <-. eauto 6.
  - destruct (nth_error l i) as [c|] eqn:Ei.
    + elim (Hno (Some (TFailed c))). apply in_combine_nth. exists i. now rewrite nth_error_map, Ei.
    + apply nth_error_None in Ei. apply nth_error_lt in Hi. lia.
Qed.

Lemma read_table_nth d addrs i r :
  nth_error (read_table d addrs) i = Some r -> exists a, nth_error addrs i = Some a /\ r = tget d a.
Proof.
  unfold read_table. rewrite nth_error_map. destruct (nth_error addrs i) as [a|]; [|discriminate].
  intros [= <-]. eauto.
Qed.
Lemma read_table_length d addrs : length (read_table d addrs) = length addrs.
Proof. apply map_length. Qed.
Lemma m_addrs_length msg : length (m_addrs msg) = length (m_rcpts msg).
Proof. unfold m_addrs, m_rcpts. now rewrite !map_length. Qed.

Section Smtp.
  Variable sc : script.
  Variable cfg : config.
  Variable msgs : list message.

  Definition avail (s : st) (stg : stage) : Prop :=
    In stg (pend s) \/ lookup_code (filled s) stg <> None.
  Definition isfilled (s : st) (stg : stage) : Prop := lookup_code (filled s) stg <> None.
  Definition filled_ok (s : st) : Prop :=
    forall stg c, lookup_code (filled s) stg = Some c -> read_reply (reply sc stg) = inl c.

  Definition conn_stage (stg : stage) : Prop :=
    match stg with Banner | Ehlo | Helo | StartTls | Ehlo2 | Helo2 | Auth | Quit => True | _ => False end.
  Definition msg_stage (k : N) (stg : stage) : Prop :=
    match stg with
    | Idle j | Mail j | Data j | Rset j | Rcpt j _ | Eod j _ => j = k
    | _ => False
    end.
  (* the stages that can influence the result of request k *)
  Definition rel (k : N) (stg : stage) : Prop := conn_stage stg \/ msg_stage k stg.

  Definition is5 (o : outcome) : Prop := o = R5 \/ o = R500.
  Definition istrans (o : outcome) : Prop :=
    o = R4 \/ o = Malformed \/ o = BadCode \/ o = Disconnect \/ o = Stall.
  Definition msg_at (k : N) : option message := nth_error msgs (N.to_nat k).
  Definition PermCause (k : N) : Prop :=
    (exists stg, rel k stg /\ is5 (reply sc stg)) \/
    (exists msg, msg_at k = Some msg /\ m_eightbit msg = true) \/
    c_creds cfg = true \/
    (exists msg, msg_at k = Some msg /\ (m_sender_ok msg = false \/ In false (m_rcpts msg))).
  Definition TransCause (k : N) : Prop :=
    (exists stg, rel k stg /\ istrans (reply sc stg)) \/ c_conn cfg <> ConnOk.
  (* the only foreign exception a request can end in: rcpttos[0] on an envelope without recipients *)
  Definition ForeignCause (k : N) : Prop :=
    exists msg, msg_at k = Some msg /\ m_rcpts msg = [].
  Definition ExcJust (k : N) (c : cls) : Prop :=
    match c with Perm => PermCause k | Trans => TransCause k end.
  Definition nonerr (stg : stage) : Prop := reply sc stg = R2 \/ reply sc stg = R3.
  Definition eodix (i : N) : N := if c_lmtp cfg then i else 0.
  Definition own (msg : message) (i j : nat) : Prop :=
    exists a, nth_error (m_addrs msg) i = Some a /\ nth_error (m_addrs msg) j = Some a.
  Definition occ_failed (k : N) (j : nat) (c : cls) : Prop :=
    exists stg cl, (stg = Rcpt k (N.of_nat j) \/ stg = Eod k (N.of_nat j)) /\
                   read_reply (reply sc stg) = inl cl /\ is_error cl = true /\ factory cl = c.
  (* what the mapping may hold for the address at position i: justified by the replies to the
     occurrences of that same address (and the message replies) only *)
  Definition RJust (k : N) (msg : message) (i : nat) (r : tres) : Prop :=
    match r with
    | TDelivered =>
        nonerr (Mail k) /\ nonerr (Data k) /\
        if c_lmtp cfg
        then (exists j, own msg i j /\ reply sc (Rcpt k (N.of_nat j)) = R2 /\ nonerr (Eod k (N.of_nat j))) \/
             (forall j, own msg i j -> reply sc (Rcpt k (N.of_nat j)) = R3)
        else (forall j, own msg i j -> nonerr (Rcpt k (N.of_nat j))) /\ nonerr (Eod k 0)
    | TFailed c => exists j, own msg i j /\ occ_failed k j c
    | TMissing => False
    end.
  Definition Just (k : N) (r : mres) : Prop :=
    match r with
    | MMap l => exists msg, msg_at k = Some msg /\ length l = length (m_rcpts msg) /\
                            forall i r, nth_error l i = Some r -> RJust k msg i r
    | MExc c => ExcJust k c
    | MOther => ForeignCause k
    end.
  Definition results_ok (s : st) : Prop :=
    forall k r, lookup_res (results s) k = Some r -> Just k r.
  Definition Cause (k : N) (e : abort) : Prop :=
    match e with
    | ARelay c => ExcJust k c
    | ARelayRcpts c l =>
        ExcJust k c /\ (exists msg, msg_at k = Some msg /\ length l = length (m_rcpts msg)) /\
        forall i d, nth_error l i = Some d -> occ_failed k i d
    | ASmtp => exists stg, rel k stg /\
                           (reply sc stg = Malformed \/ reply sc stg = Disconnect \/ reply sc stg = BadCode)
    | ATimeout => (exists stg, rel k stg /\ reply sc stg = Stall) \/ c_conn cfg = ConnTimeout
    | ASock => c_conn cfg = ConnRefused
    | AForeign => ForeignCause k
    end.

  Record Inv (k : N) (s : st) : Prop := mkInv {
    i_filled : filled_ok s;
    i_res : results_ok s;
    i_pend : forall stg, In stg (pend s) -> rel k stg;
    i_lr : forall stg, In stg (lr s) -> (exists i, stg = Rcpt k i) /\ avail s stg;
    i_cur : cur s = k;
    i_smtp : c_lmtp cfg = false -> lr s = [] }.
  Definition EA (k : N) (e : abort) (s : st) : Prop :=
    Cause k e /\ filled_ok s /\ results_ok s /\ cur s = k /\ (is_relay e = true -> Inv k s).
  Definition EN (k : N) (e : abort) (s : st) : Prop :=
    EA k e s /\ is_relay e = false /\ is_foreign e = false.
  Definition mono (s s' : st) : Prop :=
    (forall stg, avail s stg -> avail s' stg) /\ (forall stg, isfilled s stg -> isfilled s' stg) /\
    results s' = results s.
  Lemma mono_refl s : mono s s.
  Proof. repeat split; auto. Qed.
  Lemma mono_trans a b c : mono a b -> mono b c -> mono a c.
  Proof. intros (H1 & H2 & H3) (G1 & G2 & G3). repeat split; auto; congruence. Qed.

  Lemma EA_Inv k e s : Inv k s -> Cause k e -> EA k e s.
  Proof.
    intros HI Hc. split; [exact Hc|]. split; [apply HI|]. split; [apply HI|].
    split; [apply HI | intros _; exact HI].
  Qed.
  Lemma ok_EN {A} k (m : M A) s Q : ok m s Q (EN k) -> ok m s Q (EA k).
  Proof. intros H. eapply ok_weaken; [exact H | auto | now intros e s' [He _]]. Qed.

  Lemma err_cause k stg c :
    rel k stg -> read_reply (reply sc stg) = inl c -> is_error c = true -> ExcJust k (factory c).
  Proof.
    intros Hr Hc He. destruct (reply sc stg) eqn:Ho; try discriminate; injection Hc as <-;
      try discriminate; cbn; left; exists stg; (split; [exact Hr|]); rewrite Ho; unfold istrans, is5; auto.
  Qed.
  Lemma noerr_nonerr stg c :
    read_reply (reply sc stg) = inl c -> is_error c = false -> nonerr stg.
  Proof.
    intros Hc He. unfold nonerr. destruct (reply sc stg); try discriminate; injection Hc as <-;
      try discriminate; auto.
  Qed.
  Lemma abort_cause k stg e :
    rel k stg -> read_reply (reply sc stg) = inr e ->
    Cause k e /\ is_relay e = false /\ is_foreign e = false.
  Proof.
    intros Hr He. destruct (reply sc stg) eqn:Ho; try discriminate; injection He as <-;
      (split; [|split; reflexivity]); cbn; try left; exists stg; rewrite Ho; auto.
  Qed.

  Lemma cmd_eq stg s :
    cmd stg s = (inl tt, mkSt (stg :: sent s) (pend s ++ [stg]) (filled s) (xt s) (lr s) (cur s) (results s)).
  Proof. reflexivity. Qed.

  Lemma cmd_spec k stg s E :
    Inv k s -> rel k stg ->
    ok (cmd stg) s (fun _ s' => Inv k s' /\ mono s s' /\ lr s' = lr s /\ avail s' stg) E.
  Proof.
    intros [Hf Hr Hp Hl Hc Hsm] Hrel. unfold ok. rewrite cmd_eq.
    assert (Hav : forall x, avail s x -> avail (mkSt (stg :: sent s) (pend s ++ [stg]) (filled s) (xt s) (lr s) (cur s) (results s)) x).
    { intros x [H|H]; [left; cbn; apply in_or_app; left; exact H | right; exact H]. }
    split; [|split; [|split]].
    - constructor; cbn; auto.
      + intros x Hx. apply in_app_or in Hx. destruct Hx as [Hx|[<-|[]]]; auto.
      + intros x Hx. destruct (Hl x Hx) as [H1 H2]. split; [exact H1 | apply Hav, H2].
    - repeat split; auto.
    - reflexivity.
    - left. cbn. apply in_or_app. right. left. reflexivity.
  Qed.

  (* slot by slot: a reply fills the first pending slot, which keeps Inv and forgets nothing; a
     failing read loses that slot (Inv need not hold any more) and ends the flush *)
  Lemma flush_spec k s :
    Inv k s ->
    ok (flush_pipeline sc) s
       (fun _ s' => Inv k s' /\ mono s s' /\ lr s' = lr s /\ pend s' = []) (EN k).
  Proof.
    destruct s as [sn p f x l c rs]. revert f. induction p as [|stg p IH]; intros f HI.
    - split; [exact HI|]. split; [apply mono_refl | auto].
    - pose proof HI as [Hf Hr Hp Hl Hc Hsm]. unfold ok, flush_pipeline. cbn [pend filled flush_go].
      destruct (read_reply (reply sc stg)) as [c0|a] eqn:E.
      + set (s1 := mkSt sn p ((stg, c0) :: f) x l c rs).
        assert (Hm1 : mono (mkSt sn (stg :: p) f x l c rs) s1).
        { split; [|split; [|reflexivity]]; intros y; unfold avail, isfilled; cbn.
          - intros [[<-|Hy]|Hy]; [right; now rewrite stage_eqb_refl | now left | right; now destruct (stage_eqb stg y)].
          - now destruct (stage_eqb stg y). }
        assert (HI1 : Inv k s1).
        { constructor; cbn; auto.
          - intros y c1. cbn. destruct (stage_eqb stg y) eqn:Es; [|apply Hf].
            apply stage_eqb_eq in Es. subst y. now intros [= <-].
          - intros y Hy. apply Hp. now right.
          - intros y Hy. destruct (Hl y Hy) as [H1 H2]. split; [exact H1 | apply Hm1, H2]. }
        eapply (ok_weaken (flush_pipeline sc) s1); [apply (IH _ HI1)| |auto].
        intros ? s' (HI' & Hm' & Hl' & Hp'). split; [exact HI'|]. split; [exact (mono_trans _ _ _ Hm1 Hm') | auto].
      + destruct (abort_cause k stg a (Hp stg (or_introl eq_refl)) E) as (Hca & Hnr & Hnf).
        split; [|split; [exact Hnr | exact Hnf]].
        split; [exact Hca|]. split; [exact Hf|]. split; [exact Hr|]. split; [exact Hc|].
        rewrite Hnr. discriminate.
  Qed.

  Lemma avail_filled s stg : pend s = [] -> avail s stg -> isfilled s stg.
  Proof. intros Hp [H|H]; [now rewrite Hp in H | exact H]. Qed.

  Lemma cmd_flush_spec k stg s :
    Inv k s -> rel k stg ->
    ok (cmd stg ;;; flush_pipeline sc) s
       (fun _ s' => Inv k s' /\ mono s s' /\ lr s' = lr s /\ pend s' = [] /\ avail s' stg) (EN k).
  Proof.
    intros HI Hrel. eapply ok_bind; [apply cmd_spec; eauto|].
    intros ? s1 (HI1 & Hm1 & Hl1 & Ha1). eapply ok_weaken; [apply flush_spec; eauto| |auto].
    intros ? s2 (HI2 & Hm2 & Hl2 & Hp2). split; [exact HI2|]. split; [eapply mono_trans; eauto|].
    split; [congruence|]. split; [exact Hp2 | apply Hm2, Ha1].
  Qed.

  Lemma maybe_flush_spec k (p : bool) s :
    Inv k s ->
    ok (if p then mret tt else flush_pipeline sc) s (fun _ s' => Inv k s' /\ mono s s' /\ lr s' = lr s) (EN k).
  Proof.
    intros HI. destruct p; [apply ok_ret; split; [exact HI | split; [apply mono_refl | reflexivity]]|].
    eapply ok_weaken; [apply (flush_spec k s HI)| |auto]. intros ? s1 (H1 & H2 & H3 & _). auto.
  Qed.

  Lemma Inv_upd k s sn x l :
    Inv k s -> (l = lr s \/ l = []) ->
    Inv k (mkSt sn (pend s) (filled s) x l (cur s) (results s)).
  Proof.
    intros [Hf Hr Hp Hl Hc Hsm] Hlr. constructor; cbn; auto.
    - intros stg Hs. destruct Hlr as [->| ->]; [|destruct Hs].
      destruct (Hl stg Hs) as [H1 H2]. split; [exact H1 | exact H2].
    - destruct Hlr as [->| ->]; auto.
  Qed.

  Lemma ok_code_of {B} stg (f : option rclass -> M B) s Q E :
    filled_ok s -> isfilled s stg ->
    (forall c, read_reply (reply sc stg) = inl c -> lookup_code (filled s) stg = Some c -> ok (f (Some c)) s Q E) ->
    ok (mbind (code_of stg) f) s Q E.
  Proof.
    intros Hf Hfl H. change (ok (f (lookup_code (filled s) stg)) s Q E).
    destruct (lookup_code (filled s) stg) as [c|] eqn:Ec; [auto | contradiction].
  Qed.
  Lemma ok_is_error_of {B} stg (f : bool -> M B) s Q E :
    filled_ok s -> isfilled s stg ->
    (forall c, read_reply (reply sc stg) = inl c -> lookup_code (filled s) stg = Some c -> ok (f (is_error c)) s Q E) ->
    ok (mbind (is_error_of stg) f) s Q E.
  Proof.
    intros Hf Hfl H. unfold is_error_of. apply <- @ok_assoc. apply ok_code_of; [exact Hf | exact Hfl|].
    intros c Hr Hc. exact (H c Hr Hc).
  Qed.
  Lemma ok_raise_factory {A} stg s c (Q : A -> st -> Prop) (E : abort -> st -> Prop) :
    lookup_code (filled s) stg = Some c -> E (ARelay (factory c)) s -> ok (@raise_factory sc A stg) s Q E.
  Proof. intros Hc He. unfold ok, raise_factory, code_of, mbind, mget. now rewrite Hc. Qed.
  Lemma EA_factory k stg s c :
    Inv k s -> rel k stg -> lookup_code (filled s) stg = Some c -> is_error c = true ->
    EA k (ARelay (factory c)) s.
  Proof. intros HI Hrel Hc He. apply EA_Inv; [exact HI|]. eapply err_cause; eauto. apply HI, Hc. Qed.

  (* `if reply.is_error(): raise factory(reply)` on a filled slot: the abort happens in the state s itself *)
  Lemma check_stage_spec {A} (f : M A) k stg s Q (E : abort -> st -> Prop) :
    Inv k s -> rel k stg -> isfilled s stg -> (forall e, EA k e s -> E e s) ->
    (nonerr stg -> ok f s Q E) ->
    ok (e <- is_error_of stg ;; if e then raise_factory sc stg else f) s Q E.
  Proof.
    intros HI Hrel Hfl HE Hf. apply ok_is_error_of; [apply HI | exact Hfl|]. intros c Hr Hc.
    destruct (is_error c) eqn:Ee.
    - eapply ok_raise_factory; [exact Hc|]. eapply HE, EA_factory; eauto.
    - eapply Hf, noerr_nonerr; eauto.
  Qed.
  (* handshake: each step keeps HP relative to the state s0 the handshake started in *)
  Definition HP (k : N) (s s' : st) : Prop :=
    Inv k s' /\ pend s' = [] /\ results s' = results s /\ (lr s = [] -> lr s' = []).
  Lemma HP_refl k s : Inv k s -> pend s = [] -> HP k s s.
  Proof. intros HI Hp. split; [exact HI|]. split; [exact Hp|]. split; [reflexivity | auto]. Qed.
  Lemma HP_mono k s0 s s' :
    HP k s0 s -> Inv k s' -> mono s s' -> lr s' = lr s -> pend s' = [] -> HP k s0 s'.
  Proof.
    intros (_ & _ & Hr & Hl) HI (_ & _ & Hr') Hl' Hp. split; [exact HI|]. split; [exact Hp|].
    split; [congruence|]. intros E. rewrite Hl'. auto.
  Qed.
  Lemma HP_upd k s0 s sn x l :
    HP k s0 s -> (l = lr s \/ l = []) ->
    HP k s0 (mkSt sn (pend s) (filled s) x l (cur s) (results s)).
  Proof.
    intros (HI & Hp & Hr & Hl) Hlr. split; [now apply Inv_upd|]. split; [exact Hp|]. split; [exact Hr|].
    cbn. destruct Hlr as [->| ->]; auto.
  Qed.

  Lemma r_stage_spec k stg (g : bool -> bool) s0 s :
    HP k s0 s -> rel k stg -> (forall b, g b = true -> b = true) ->
    ok ((cmd stg ;;; flush_pipeline sc) ;;;
        e <- is_error_of stg ;; if g e then raise_factory sc stg else mret tt) s
       (fun _ => HP k s0) (EA k).
  Proof.
    intros HP0 Hrel Hg. eapply ok_bind; [apply ok_EN, (cmd_flush_spec k stg s (proj1 HP0) Hrel)|].
    intros ? s1 (HI1 & Hm1 & Hl1 & Hp1 & Ha1).
    apply ok_is_error_of; [apply HI1 | exact (avail_filled _ _ Hp1 Ha1)|]. intros c Hr Hc. destruct (g (is_error c)) eqn:E.
    - eapply ok_raise_factory; [exact Hc|]. eapply EA_factory; eauto.
    - apply ok_ret. eapply HP_mono; eauto.
  Qed.
  Lemma r_banner_spec k s0 s : HP k s0 s -> ok (r_banner sc) s (fun _ => HP k s0) (EA k).
  Proof. intros H. apply (r_stage_spec k Banner (fun b => b) s0 s H); [left; exact I | auto]. Qed.
  Lemma r_helo_spec k second s0 s : HP k s0 s -> ok (r_helo sc second) s (fun _ => HP k s0) (EA k).
  Proof.
    intros H. apply (r_stage_spec k (if second then Helo2 else Helo) (fun b => b) s0 s H); [|auto].
    destruct second; left; exact I.
  Qed.
  Lemma r_starttls_spec k s0 s : HP k s0 s -> ok (r_starttls sc cfg) s (fun _ => HP k s0) (EA k).
  Proof.
    intros H. apply (r_stage_spec k StartTls (fun b => b && c_tls_required cfg) s0 s H); [left; exact I|].
    intros b Hb. now apply andb_true_iff in Hb.
  Qed.

  Lemma r_ehlo_spec k second s0 s :
    HP k s0 s -> ok (r_ehlo sc cfg second) s (fun _ => HP k s0) (EA k).
  Proof.
    intros HP0. unfold r_ehlo, c_ehlo. set (stg := if second then Ehlo2 else Ehlo).
    assert (Hrel : rel k stg) by (destruct second; left; exact I).
    eapply ok_bind with (Q := fun _ s' => HP k s0 s' /\ isfilled s' stg).
    -
      apply -> @ok_assoc. eapply ok_bind; [apply ok_EN, (cmd_flush_spec k stg s (proj1 HP0) Hrel)|].
      intros ? s1 (HI1 & Hm1 & Hl1 & Hp1 & Ha1). pose proof (avail_filled _ _ Hp1 Ha1) as Hf1.
      assert (HP1 : HP k s0 s1) by (eapply HP_mono; eauto).
      eapply ok_bind_eq; [reflexivity|].
      destruct (lookup_code (filled s1) stg) as [[]|]; try (apply ok_ret; auto).
      unfold ok. destruct (c_lmtp cfg); cbn; (split; [apply HP_upd; auto | exact Hf1]).
    - intros ? s1 [HP1 Hf1]. apply ok_is_error_of; [apply HP1 | exact Hf1|]. intros c Hr Hc.
      destruct (is_error c) eqn:E; [|now apply ok_ret].
      destruct (c_lmtp cfg); [eapply ok_raise_factory, EA_factory; eauto; apply HP1|].
      eapply ok_bind_eq; [reflexivity|]. cbv beta. rewrite Hc.
      destruct c; try (eapply ok_raise_factory, EA_factory; eauto; apply HP1).
      now apply r_helo_spec.
  Qed.

  Lemma r_authenticate_spec k s0 s :
    HP k s0 s -> c_creds cfg = true -> ok (r_authenticate sc) s (fun _ => HP k s0) (EA k).
  Proof.
    intros HP0 Hcreds. unfold r_authenticate, c_auth.
    eapply ok_bind with (Q := fun c s' => HP k s0 s' /\ (c = C500 \/ read_reply (reply sc Auth) = inl c)).
    - eapply ok_bind; [apply ok_EN, (flush_spec k s (proj1 HP0))|].
      intros ? s1 (HI1 & Hm1 & Hl1 & Hp1). assert (HP1 : HP k s0 s1) by (eapply HP_mono; eauto).
      eapply ok_bind_eq; [reflexivity|]. destruct (x_auth (xt s1)); [|apply ok_ret; auto].
      eapply ok_bind_eq; [reflexivity|]. eapply (HP_upd _ _ _ (Auth :: sent s1)) in HP1; [|left; reflexivity].
      destruct (read_reply (reply sc Auth)) as [c|e] eqn:E.
      + apply ok_ret. eauto.
      + apply ok_raise, EA_Inv; [apply HP1|]. apply (abort_cause k Auth e (or_introl I) E).
    - intros c s1 [HP1 Hc]. destruct (is_error c) eqn:E; [|apply ok_ret; exact HP1].
      apply ok_raise, EA_Inv; [apply HP1|]. destruct Hc as [->|Hc]; [right; right; left; exact Hcreds|].
      eapply err_cause; eauto. left; exact I.
  Qed.

  Lemma r_handshake_spec k s0 s :
    HP k s0 s -> ok (r_handshake sc cfg) s (fun _ => HP k s0) (EA k).
  Proof.
    intros HP0. unfold r_handshake. eapply ok_bind with (Q := fun _ => HP k s0).
    - destruct (c_tls_immediately cfg).
      + eapply ok_bind; [apply r_banner_spec, HP0|]. intros ? s1 H1. now apply r_ehlo_spec.
      + eapply ok_bind; [apply r_banner_spec, HP0|]. intros ? s1 H1.
        eapply ok_bind; [apply r_ehlo_spec, H1|]. intros ? s2 H2. eapply ok_bind_eq; [reflexivity|].
        destruct (c_tls_required cfg || x_starttls (xt s2)); [|now apply ok_ret].
        eapply ok_bind; [apply r_starttls_spec, H2|]. intros ? s3 H3. now apply r_ehlo_spec.
    - intros ? s1 H1. destruct (c_creds cfg) eqn:Ec; [now apply r_authenticate_spec | now apply ok_ret].
  Qed.

  (* `except UnicodeError` around mailfrom / rcptto: an address that cannot be encoded is a permanent
     failure; the wire never raises what the arm catches *)
  Lemma ok_encode {A} k msg (b : bool) (m : M A) s Q :
    Inv k s -> msg_at k = Some msg -> (b = false -> m_sender_ok msg = false \/ In false (m_rcpts msg)) ->
    ok m s Q (EN k) ->
    ok (mcatch (if b then m else mraise AForeign) is_foreign address_error) s Q (EA k).
  Proof.
    intros HI Hm Hb H. destruct b.
    - eapply ok_catch; [exact H|]. intros e s1 (He & _ & Hnf). now rewrite Hnf.
    - change (EA k (ARelay Perm) s). apply EA_Inv; [exact HI|]. right. right. right. exists msg. auto.
  Qed.

  Lemma r_mailfrom_spec k msg s :
    Inv k s -> msg_at k = Some msg ->
    ok (r_mailfrom sc k (m_sender_ok msg)) s
       (fun _ s' => Inv k s' /\ lr s' = lr s /\ avail s' (Mail k)) (EA k).
  Proof.
    intros HI Hm. unfold r_mailfrom, c_mailfrom.
    assert (Hrel : rel k (Mail k)) by (right; reflexivity).
    eapply ok_bind with (Q := fun _ s' => Inv k s' /\ lr s' = lr s /\ avail s' (Mail k)).
    - apply (ok_encode k msg); [exact HI | exact Hm | auto|].
      eapply ok_bind; [apply (cmd_spec k _ s _ HI Hrel)|].
      intros ? s1 (HI1 & _ & Hl1 & Ha1). eapply ok_bind_eq; [reflexivity|].
      eapply ok_weaken; [apply (maybe_flush_spec k _ s1 HI1)| |auto].
      intros ? s2 (HI2 & Hm2 & Hl2). split; [exact HI2|]. split; [congruence | now apply (proj1 Hm2)].
    - intros ? s1 (HI1 & Hl1 & Ha1). eapply ok_bind_eq; [reflexivity|].
      destruct (lookup_code (filled s1) (Mail k)) as [c|] eqn:Ec; [|now apply ok_ret].
      destruct (is_error c) eqn:Ee; [|now apply ok_ret]. apply ok_raise. eapply EA_factory; eauto.
  Qed.

  Fixpoint rstages (k i : N) (rs : list bool) : list stage :=
    match rs with [] => [] | _ :: rs' => Rcpt k i :: rstages k (i + 1) rs' end.
  Lemma rstages_in k : forall rs i j,
    In (Rcpt k j) (rstages k i rs) <-> i <= j /\ (N.to_nat (j - i) < length rs)%nat.
  Proof.
    induction rs as [|b rs IH]; intros i j; cbn [rstages In length]; [split; [intros [] | lia]|].
    rewrite IH. split.
    - intros [[= <-]|[H1 H2]]; lia.
    - intros [H1 H2]. destruct (N.eq_dec i j) as [->|Hne]; [now left | right; lia].
  Qed.
  Lemma rstages_in0 k rs j : In (Rcpt k j) (rstages k 0 rs) <-> (N.to_nat j < length rs)%nat.
  Proof. rewrite rstages_in, N.sub_0_r. split; [tauto | split; [apply N.le_0_l | assumption]]. Qed.

  Lemma Inv_lr_app k s stg i :
    c_lmtp cfg = true ->
    Inv k s -> stg = Rcpt k i -> avail s stg ->
    Inv k (mkSt (sent s) (pend s) (filled s) (xt s) (lr s ++ [stg]) (cur s) (results s)).
  Proof.
    intros Hlm [Hf Hr Hp Hl Hc Hsm] -> Ha. constructor; cbn; auto.
    - intros x Hx. apply in_app_or in Hx. destruct Hx as [Hx|[<-|[]]].
      + destruct (Hl x Hx) as [H1 H2]. split; [exact H1 | exact H2].
      + split; [now exists i | exact Ha].
    - congruence.
  Qed.

  Lemma c_rcptto_spec_n k i s :
    Inv k s ->
    ok (c_rcptto sc cfg k i true) s
       (fun _ s' => Inv k s' /\ mono s s' /\ avail s' (Rcpt k i) /\
                    lr s' = lr s ++ (if c_lmtp cfg then [Rcpt k i] else [])) (EN k).
  Proof.
    intros HI. unfold c_rcptto.
    assert (Hrel : rel k (Rcpt k i)) by (right; reflexivity).
    eapply ok_bind; [apply (cmd_spec k _ s _ HI Hrel)|]. intros ? s1 (HI1 & Hm1 & Hl1 & Ha1).
    eapply ok_bind_eq; [reflexivity|]. eapply ok_bind; [apply (maybe_flush_spec k _ s1 HI1)|].
    intros ? s2 (HI2 & Hm2 & Hl2). pose proof (mono_trans _ _ _ Hm1 Hm2) as Hm12.
    assert (Ha2 : avail s2 (Rcpt k i)) by now apply (proj1 Hm2).
    assert (Hl12 : lr s2 = lr s) by congruence.
    destruct (c_lmtp cfg) eqn:Elm.
    - eapply ok_bind_eq; [reflexivity|]. unfold ok. cbn. rewrite Hl12.
      split; [rewrite <- Hl12; now apply (Inv_lr_app k s2 _ i)|]. split; [exact Hm12|]. split; [exact Ha2 | reflexivity].
    - apply ok_ret. rewrite app_nil_r. auto.
  Qed.
  Lemma c_rcptto_spec k i s :
    Inv k s ->
    ok (c_rcptto sc cfg k i true) s
       (fun _ s' => Inv k s' /\ mono s s' /\ avail s' (Rcpt k i) /\
                    lr s' = lr s ++ (if c_lmtp cfg then [Rcpt k i] else [])) (EA k).
  Proof. intros HI. apply ok_EN, c_rcptto_spec_n, HI. Qed.

  Lemma r_rcpttos_spec k msg : forall rs i s,
    Inv k s -> msg_at k = Some msg -> (forall b, In b rs -> In b (m_rcpts msg)) ->
    ok (r_rcpttos sc cfg k i rs) s
       (fun _ s' => Inv k s' /\ mono s s' /\ (forall stg, In stg (rstages k i rs) -> avail s' stg) /\
                    lr s' = lr s ++ (if c_lmtp cfg then rstages k i rs else [])) (EA k).
  Proof.
    induction rs as [|b rs IH]; intros i s HI Hm Hin; cbn [r_rcpttos rstages].
    - apply ok_ret. split; [exact HI|]. split; [apply mono_refl|]. split; [intros ? []|].
      destruct (c_lmtp cfg); now rewrite app_nil_r.
    - eapply ok_bind; [apply (ok_encode k msg b (c_rcptto sc cfg k i true) s _ HI Hm), (c_rcptto_spec_n k i s HI)|].
      { intros ->. right. apply Hin. now left. }
      intros ? s1 (HI1 & Hm1 & Ha1 & Hl1).
      eapply ok_weaken; [apply (IH (i + 1) s1 HI1 Hm)| |auto].
      + intros b' Hb. apply Hin. now right.
      + intros ? s2 (HI2 & Hm2 & Ha2 & Hl2). split; [exact HI2|]. split; [eapply mono_trans; eauto|].
        split.
        * intros stg [<-|Hs]; [now apply (proj1 Hm2) | now apply Ha2].
        * rewrite Hl2, Hl1. destruct (c_lmtp cfg); cbn; now rewrite <- app_assoc.
  Qed.

  Definition err_of (c : rclass) : option cls := if is_error c then Some (factory c) else None.
  Definition errs_ok (k i : N) (rs : list bool) (errs : list (option cls)) : Prop :=
    length errs = length rs /\
    forall j o, nth_error errs j = Some o ->
      exists c, read_reply (reply sc (Rcpt k (i + N.of_nat j))) = inl c /\ o = err_of c.

  Lemma rcpt_errors_spec k E : forall rs i s,
    filled_ok s -> (forall stg, In stg (rstages k i rs) -> isfilled s stg) ->
    ok (rcpt_errors sc k i rs) s (fun errs s' => s' = s /\ errs_ok k i rs errs) E.
  Proof.
    induction rs as [|b rs IH]; intros i s Hf Hfl; cbn [rcpt_errors rstages] in *.
    - apply ok_ret. split; [reflexivity|]. split; [reflexivity | intros [|j] o; discriminate].
    - apply ok_code_of; [exact Hf | apply Hfl; now left|]. intros c Hr _.
      eapply ok_bind; [apply (IH (i + 1) s Hf); intros stg Hs; apply Hfl; now right|].
      intros errs s' (-> & Hlen & Hn). apply ok_ret. split; [reflexivity|].
      split; [cbn; now rewrite Hlen|]. intros [|j] o; cbn [nth_error].
      + intros [= <-]. exists c. now rewrite N.add_0_r.
      + intros H. replace (i + N.of_nat (S j)) with (i + 1 + N.of_nat j) by lia. auto.
  Qed.
  Lemma errs_ok_nth k rs errs j o :
    errs_ok k 0 rs errs -> nth_error errs j = Some o ->
    match o with Some c => occ_failed k j c | None => nonerr (Rcpt k (N.of_nat j)) end.
  Proof.
    intros [_ H] Hn. destruct (H j _ Hn) as (cl & Hc & ->). unfold err_of.
    destruct (is_error cl) eqn:Ee; [exists (Rcpt k (N.of_nat j)), cl; auto | eapply noerr_nonerr; eauto].
  Qed.

  Lemma all_some_some : forall errs l, all_some errs = Some l -> errs = map Some l.
  Proof.
    induction errs as [|o errs IH]; intros l; cbn.
    - now intros [= <-].
    - destruct o as [c|]; [|discriminate]. destruct (all_some errs) as [r|]; [|discriminate].
      intros [= <-]. cbn. f_equal. now apply IH.
  Qed.

  Lemma occ_failed_excjust k j d : occ_failed k j d -> ExcJust k d.
  Proof.
    intros (stg & cl & Hs & Hc & He & <-). eapply err_cause; eauto.
    destruct Hs as [->| ->]; right; reflexivity.
  Qed.

  Lemma check_replies_spec k msg s :
    Inv k s -> msg_at k = Some msg ->
    isfilled s (Mail k) -> isfilled s (Data k) ->
    (forall stg, In stg (rstages k 0 (m_rcpts msg)) -> isfilled s stg) ->
    ok (check_replies sc k (m_rcpts msg)) s
       (fun _ s' => s' = s /\ nonerr (Mail k) /\ nonerr (Data k)) (fun e s' => s' = s /\ EA k e s').
  Proof.
    intros HI Hm Hfm Hfd Hfr. unfold check_replies.
    apply (check_stage_spec _ k); [exact HI | right; reflexivity | exact Hfm | auto|]. intros Hnm.
    eapply ok_bind; [apply (rcpt_errors_spec k _ (m_rcpts msg) 0 s); [apply HI | exact Hfr]|].
    intros errs s' [-> He]. destruct (all_some errs) as [l|] eqn:Ea.
    - apply all_some_some in Ea. subst errs.
      assert (Hl : forall j d, nth_error l j = Some d -> occ_failed k j d).
      { intros j d Hn. apply (errs_ok_nth k _ _ j (Some d) He). now rewrite nth_error_map, Hn. }
      destruct He as [Hlen _]. rewrite map_length in Hlen. destruct l as [|c0 l].
      + apply ok_raise. split; [reflexivity|]. apply EA_Inv; [exact HI|]. exists msg. split; [exact Hm|].
        destruct (m_rcpts msg); [reflexivity | discriminate].
      + assert (H0 : ExcJust k c0) by (eapply occ_failed_excjust, (Hl 0%nat); reflexivity).
        destruct (mixed c0 l); apply ok_raise; (split; [reflexivity|]); apply EA_Inv; try exact HI; [|exact H0].
        split; [exact H0|]. split; [exists msg; auto | exact Hl].
    - apply (check_stage_spec _ k); [exact HI | right; reflexivity | exact Hfd | auto|]. intros Hnd. apply ok_ret. auto.
  Qed.

  Definition owners_ok (k : N) (l : list stage) (r : list N) : Prop :=
    forall i, In i r <-> In (Rcpt k i) l /\ reply sc (Rcpt k i) = R2.
  Lemma owners_ok_cons k i0 l r c :
    read_reply (reply sc (Rcpt k i0)) = inl c -> owners_ok k l r ->
    owners_ok k (Rcpt k i0 :: l) (match c with C2 => i0 :: r | _ => r end).
  Proof.
    intros Hrd H i. apply read_C2 in Hrd.
    assert (E : In i (match c with C2 => i0 :: r | _ => r end) <-> (i0 = i /\ c = C2) \/ In i r)
      by (destruct c; cbn; intuition discriminate).
    rewrite E, (H i). cbn [In]. split.
    - intros [[<- Hc]|[G1 G2]]; [split; [now left | now apply Hrd] | tauto].
    - intros [[[= <-]|G] G2]; [left; split; [reflexivity | now apply Hrd] | tauto].
  Qed.
  Definition eod_slots (k : N) (r : list N) : list stage :=
    if c_lmtp cfg then map (Eod k) r else [Eod k 0].

  (* the RCPTs in l were filled by a state s0 before s; slots are only queued, so they stay filled *)
  Lemma lmtp_slots_spec k s0 : forall l s,
    mono s0 s -> Inv k s -> (forall stg, In stg l -> (exists i, stg = Rcpt k i) /\ isfilled s0 stg) ->
    ok (lmtp_slots k l) s
       (fun r s' => Inv k s' /\ mono s s' /\ owners_ok k l r /\ (forall i, In i r -> avail s' (Eod k i))) (EA k).
  Proof.
    induction l as [|stg l IH]; intros s Hm0 HI Hl; cbn [lmtp_slots].
    - apply ok_ret. split; [exact HI|]. split; [apply mono_refl|]. split; [|intros ? []]. intros i. cbn. tauto.
    - destruct (Hl stg (or_introl eq_refl)) as [[i0 ->] Hfl].
      apply ok_code_of; [apply HI | apply Hm0, Hfl|]. intros c Hrd _.
      pose proof (fun stg Hs => Hl stg (or_intror Hs)) as Hl'.
      destruct c; cbn [rcpt_index];
        try (eapply ok_weaken; [apply (IH s Hm0 HI Hl')| |auto];
             intros r s1 (H1 & H2 & H3 & H4); split; [exact H1|]; split; [exact H2|];
             split; [exact (owners_ok_cons k i0 l r _ Hrd H3) | exact H4]).
      eapply ok_bind; [apply (cmd_spec k (Eod k i0) s _ HI); right; reflexivity|].
      intros ? s1 (HI1 & Hm1 & _ & Ha1).
      eapply ok_bind; [apply (IH s1 (mono_trans _ _ _ Hm0 Hm1) HI1 Hl')|].
      intros r s2 (HI2 & Hm2 & H3 & H4). apply ok_ret.
      split; [exact HI2|]. split; [eapply mono_trans; eauto|].
      split; [exact (owners_ok_cons k i0 l r C2 Hrd H3)|].
      intros i [<-|Hin]; [now apply (proj1 Hm2) | now apply H4].
  Qed.

  Lemma c_send_data_spec k s :
    Inv k s -> pend s = [] ->
    ok (c_send_data sc cfg k) s
       (fun r s' => Inv k s' /\ lr s' = [] /\ (c_lmtp cfg = true -> owners_ok k (lr s) r) /\
                    forall stg, In stg (eod_slots k r) -> avail s' stg) (EA k).
  Proof.
    intros HI Hp. unfold c_send_data.
    eapply ok_bind with (Q := fun r s' => Inv k s' /\ lr s' = [] /\
          (c_lmtp cfg = true -> owners_ok k (lr s) r) /\ forall stg, In stg (eod_slots k r) -> avail s' stg).
    - unfold eod_slots. destruct (c_lmtp cfg) eqn:Elm.
      + eapply ok_bind_eq; [reflexivity|]. eapply ok_bind; [apply (lmtp_slots_spec k s (lr s) s (mono_refl s) HI)|].
        * intros stg Hs. destruct (i_lr _ _ HI stg Hs) as [H1 H2]. split; [exact H1 | exact (avail_filled _ _ Hp H2)].
        * intros r s1 (HI1 & _ & H3 & H4). eapply ok_bind_eq; [reflexivity|]. apply ok_ret.
          split; [apply Inv_upd; auto|]. split; [reflexivity|]. split; [auto|].
          intros stg Hs. apply in_map_iff in Hs. destruct Hs as (i & <- & Hi). now apply H4.
      + eapply ok_bind; [apply (cmd_spec k (Eod k 0) s _ HI); right; reflexivity|].
        intros ? s1 (HI1 & _ & Hl1 & Ha1). apply ok_ret. split; [exact HI1|].
        split; [rewrite Hl1; exact (i_smtp _ _ HI Elm)|]. split; [discriminate | now intros stg [<-|[]]].
    - intros r s1 (HI1 & Hl1 & Ho & Ha). eapply ok_bind_eq; [reflexivity|].
      eapply ok_bind; [apply ok_EN, (maybe_flush_spec k _ s1 HI1)|]. intros ? s2 (HI2 & Hm2 & Hl2). apply ok_ret.
      split; [exact HI2|]. split; [congruence|]. split; [exact Ho|].
      intros stg Hs. apply (proj1 Hm2), Ha, Hs.
  Qed.

  Lemma ok_catch_bind {A B C} (m : M A) (f : A -> M B) handles h (g : B -> M C) s Q1
        (Q : C -> st -> Prop) (E : abort -> st -> Prop) :
    ok m s Q1 (fun e s' => handles e = false /\ E e s') ->
    (forall a s1, Q1 a s1 -> ok (mbind (mcatch (f a) handles h) g) s1 Q E) ->
    ok (mbind (mcatch (mbind m f) handles h) g) s Q E.
  Proof.
    unfold ok, mcatch, mbind. destruct (m s) as [[a|e] s1]; [intros H1 H2; exact (H2 a s1 H1) | now intros [-> H] _].
  Qed.

  Definition env_ok (k : N) (msg : message) (errs : list (option cls)) : Prop :=
    nonerr (Mail k) /\ nonerr (Data k) /\ errs_ok k 0 (m_rcpts msg) errs.

  Lemma send_envelope_spec k msg s :
    Inv k s -> lr s = [] -> msg_at k = Some msg ->
    ok (send_envelope sc cfg k msg) s
       (fun errs s' => Inv k s' /\ pend s' = [] /\ env_ok k msg errs /\
                       lr s' = (if c_lmtp cfg then rstages k 0 (m_rcpts msg) else []))
       (EA k).
  Proof.
    intros HI Hlr Hm. unfold send_envelope.
    eapply ok_bind; [apply (r_mailfrom_spec k msg s HI Hm)|]. intros ? s1 (HI1 & Hl1 & Ha1).
    eapply ok_bind; [apply (r_rcpttos_spec k msg (m_rcpts msg) 0 s1 HI1 Hm); auto|].
    intros ? s2 (HI2 & Hm2 & Ha2 & Hl2). rewrite Hl1, Hlr in Hl2. cbn [app] in Hl2.
    (* DATA is flushed, so every reply of the envelope is there; _check_replies leaves the state
       as the flush left it *)
    eapply ok_catch_bind.
    { eapply ok_weaken; [apply (cmd_flush_spec k (Data k) s2 HI2); right; reflexivity | intros ? ? H; exact H |].
      intros e s' (H1 & H2 & _). auto. }
    intros ? s3 (HI3 & Hm3 & Hl3 & Hp3 & Ha3). cbv beta.
    pose proof (fun stg => avail_filled s3 stg Hp3) as Hfil.
    assert (Hfr : forall stg, In stg (rstages k 0 (m_rcpts msg)) -> isfilled s3 stg)
      by (intros stg Hs; apply Hfil, Hm3, Ha2, Hs).
    eapply ok_bind.
    - eapply ok_catch; [apply (check_replies_spec k msg s3 HI3 Hm);
                        [apply Hfil, Hm3, Hm2, Ha1 | apply Hfil, Ha3 | exact Hfr]|].
      intros e s4 [-> He]. destruct (is_relay e); [|exact He].
      apply ok_is_error_of; [apply HI3 | apply Hfil, Ha3|]. intros d _ _.
      eapply ok_bind with (Q := fun _ => Inv k);
        [|intros ? s5 HI5; apply ok_raise, EA_Inv; [exact HI5 | apply He]].
      destruct (is_error d); [now apply ok_ret|].
      eapply ok_bind; [apply (c_send_data_spec k s3 HI3 Hp3)|]. intros r s5 [HI5 _]. now apply ok_ret.
    - intros ? s4 (-> & Hn1 & Hn2).
      eapply ok_weaken; [apply (rcpt_errors_spec k (EA k) (m_rcpts msg) 0 s3); [apply HI3 | exact Hfr]| |auto].
      intros errs s4 [-> He]. split; [exact HI3|]. split; [exact Hp3|]. split; [split; auto|]. now rewrite Hl3, Hl2.
  Qed.

  Lemma handle_encoding_spec k msg s :
    Inv k s -> msg_at k = Some msg ->
    ok (handle_encoding msg) s (fun _ s' => s' = s) (EA k).
  Proof.
    intros HI Hm. unfold handle_encoding. eapply ok_bind_eq; [reflexivity|].
    destruct (negb (x_8bitmime (xt s)) && m_eightbit msg) eqn:E; [|now apply ok_ret].
    apply ok_raise, EA_Inv; [exact HI|]. right. left. exists msg. split; [exact Hm|].
    now apply andb_true_iff in E.
  Qed.

  Definition Quiet (k : N) (s : st) : Prop := Inv k s /\ pend s = [] /\ lr s = [].
  Lemma Quiet_cur j k s : Quiet j s -> Quiet k (mkSt (sent s) (pend s) (filled s) (xt s) (lr s) k (results s)).
  Proof.
    intros ([Hf Hr _ _ _ _] & Hp & Hl). split; [|split; assumption]. constructor; cbn; auto.
    - rewrite Hp. intros ? [].
    - rewrite Hl. intros ? [].
  Qed.

  Definition eod_ok (k : N) (l : list stage) (r : list N) (s : st) : Prop :=
    if c_lmtp cfg then owners_ok k l r /\ forall j, In j r -> isfilled s (Eod k j) else nonerr (Eod k 0).

  Lemma send_message_data_spec k s :
    Inv k s -> pend s = [] ->
    ok (send_message_data sc cfg k) s
       (fun r s' => Quiet k s' /\ eod_ok k (lr s) r s') (EA k).
  Proof.
    intros HI Hp. unfold send_message_data.
    eapply ok_bind; [apply (c_send_data_spec k s HI Hp)|]. intros r s1 (HI1 & Hl1 & Ho & Ha).
    eapply ok_bind; [apply ok_EN, (flush_spec k s1 HI1)|]. intros ? s2 (HI2 & Hm2 & Hl2 & Hp2).
    assert (Hf2 : forall stg, In stg (eod_slots k r) -> isfilled s2 stg)
      by (intros stg Hs; apply (avail_filled _ _ Hp2), Hm2, Ha, Hs).
    assert (HQ : Quiet k s2) by (split; [exact HI2 | split; congruence]).
    unfold eod_ok, eod_slots in *. destruct (c_lmtp cfg).
    - apply ok_ret. split; [exact HQ|]. split; [auto|]. intros j Hj. apply Hf2, in_map, Hj.
    - apply (check_stage_spec _ k); [exact HI2 | right; reflexivity | apply Hf2; now left | auto|].
      intros Hn. now apply ok_ret.
  Qed.

  Lemma lookup_res_cons m r l k :
    lookup_res ((m, r) :: l) k = if m =? k then Some r else lookup_res l k.
  Proof. reflexivity. Qed.
  Lemma results_ok_same s s' : results s' = results s -> results_ok s -> results_ok s'.
  Proof. intros E Hr j r0. rewrite E. apply Hr. Qed.
  Lemma results_ok_cons s s' k r :
    results s' = (k, r) :: results s -> results_ok s -> Just k r -> results_ok s'.
  Proof.
    intros E Hr Hj j r0. rewrite E, lookup_res_cons.
    destruct (N.eqb_spec k j) as [<-|_]; [now intros [= <-] | apply Hr].
  Qed.

  Lemma set_result_spec k s r E :
    Inv k s -> Just k r ->
    ok (set_result k r) s (fun _ s' => Inv k s' /\ pend s' = pend s /\ lr s' = lr s) E.
  Proof.
    intros [Hf Hr Hp Hl Hc Hsm] Hj. unfold ok, set_result. split; [|cbn; auto].
    constructor; cbn; auto. now apply (results_ok_cons s _ k r).
  Qed.

  Lemma r_rset_spec k s : Inv k s -> ok (r_rset sc cfg k) s (fun _ => Quiet k) (EA k).
  Proof.
    intros HI. unfold r_rset, c_rset. apply -> @ok_assoc.
    eapply ok_bind; [apply ok_EN, (cmd_flush_spec k (Rset k) s HI); right; reflexivity|].
    intros ? s1 (HI1 & _ & _ & Hp1 & _). destruct (c_lmtp cfg) eqn:Elm.
    - unfold ok, set_lr. cbn. split; [apply Inv_upd; auto | auto].
    - apply ok_ret. split; [exact HI1|]. split; [exact Hp1|]. now apply (i_smtp _ _ HI1).
  Qed.

  Lemma Just_table k msg d :
    msg_at k = Some msg ->
    (forall i a, nth_error (m_addrs msg) i = Some a -> RJust k msg i (tget d a)) ->
    Just k (MMap (read_table d (m_addrs msg))).
  Proof.
    intros Hm H. exists msg. split; [exact Hm|]. split; [now rewrite read_table_length, m_addrs_length|].
    intros i r Hn. apply read_table_nth in Hn. destruct Hn as (a & Ha & ->). auto.
  Qed.

  Lemma set_failure_spec k msg e s :
    EA k e s -> is_relay e = true -> msg_at k = Some msg ->
    ok (set_failure k msg e) s (fun _ => Inv k) (EA k).
  Proof.
    intros (Hca & _ & _ & _ & HI) Hr Hm. specialize (HI Hr).
    assert (Hset : forall r, Just k r -> ok (set_result k r) s (fun _ => Inv k) (EA k)).
    { intros r Hj. eapply ok_weaken; [apply (set_result_spec k s r (EA k) HI Hj)| |auto]. intros ? s' H. apply H. }
    destruct e as [c|c l| | | |]; try discriminate; cbn [set_failure]; apply Hset.
    { exact Hca. }
    destruct Hca as (Hc & (msg' & Hm' & Hlen) & Hall). rewrite Hm in Hm'. injection Hm' as <-.
    apply Just_table; [exact Hm|]. intros i a Ha.
    destruct (fail_table_char (m_addrs msg) l a i) as (c0 & j & -> & Hj & Hl);
      [now rewrite m_addrs_length | exact Ha|].
    exists j. split; [exists a; auto | now apply Hall].
  Qed.

  Definition data_ups (k : N) (addrs owners : list N) (ups : list (N * option tres)) : Prop :=
    (forall a w, In (a, w) ups ->
       exists j cl, In j owners /\ nth_error addrs (N.to_nat j) = Some a /\
                    read_reply (reply sc (Eod k j)) = inl cl /\
                    w = Some (if is_error cl then TFailed (factory cl) else TDelivered)) /\
    (forall j a, In j owners -> nth_error addrs (N.to_nat j) = Some a -> exists w, In (a, w) ups).
  Lemma data_ups_cons k addrs j ow a0 c ups :
    data_ups k addrs ow ups -> nth_error addrs (N.to_nat j) = Some a0 ->
    read_reply (reply sc (Eod k j)) = inl c ->
    data_ups k addrs (j :: ow) ((a0, Some (if is_error c then TFailed (factory c) else TDelivered)) :: ups).
  Proof.
    intros [H1 H2] Ea Hrd. split.
    - intros a w [[= <- <-]|Hx]; [exists j, c; split; [now left | auto]|].
      destruct (H1 a w Hx) as (j' & cl & Hj' & Hrest). exists j', cl. split; [now right | exact Hrest].
    - intros j' a [<-|Hj'] Hn.
      + rewrite Ea in Hn. injection Hn as <-. eexists. now left.
      + destruct (H2 j' a Hj' Hn) as [w Hw]. exists w. now right.
  Qed.
  Lemma lmtp_data_spec k addrs E : forall owners s,
    filled_ok s ->
    (forall j, In j owners -> isfilled s (Eod k j) /\ (N.to_nat j < length addrs)%nat) ->
    ok (lmtp_data sc k addrs owners) s (fun dr s' => s' = s /\ data_ups k addrs owners (fst dr)) E.
  Proof.
    induction owners as [|j ow IH]; intros s Hf Hown; cbn [lmtp_data].
    - apply ok_ret. split; [reflexivity|]. split; [intros a w [] | intros j a []].
    - destruct (Hown j (or_introl eq_refl)) as [Hfl Hlt].
      apply ok_code_of; [exact Hf | exact Hfl|]. intros c Hrd _.
      destruct (nth_error addrs (N.to_nat j)) as [a0|] eqn:Ea; [|apply nth_error_None in Ea; lia].
      eapply ok_bind; [apply (IH s Hf); intros j' Hj'; apply Hown; now right|].
      intros [ups had] s' [-> H]. pose proof (data_ups_cons k addrs j ow a0 c ups H Ea Hrd) as G.
      revert G. destruct (is_error c); intros G; apply ok_ret; (split; [reflexivity | exact G]).
  Qed.

  Lemma rcpt_updates_just k msg errs a i :
    errs_ok k 0 (m_rcpts msg) errs -> nth_error (m_addrs msg) i = Some a ->
    (forall w, In (a, w) (rcpt_updates (m_addrs msg) errs) ->
       exists c, w = Some (TFailed c) /\ RJust k msg i (TFailed c)) /\
    ((forall w, ~ In (a, w) (rcpt_updates (m_addrs msg) errs)) ->
       forall j, own msg i j -> nonerr (Rcpt k (N.of_nat j))).
  Proof.
    intros He Ha. split.
    - intros w Hw. apply in_rcpt_updates in Hw. destruct Hw as (c & j & -> & Hj & Hn).
      exists c. split; [reflexivity|]. exists j. split; [exists a; auto | exact (errs_ok_nth k _ _ j _ He Hn)].
    - intros Hno j (a' & Ha' & Hj). rewrite Ha in Ha'. injection Ha' as <-.
      destruct (nth_error errs j) as [[c|]|] eqn:Ej.
      + elim (Hno (Some (TFailed c))). apply in_rcpt_updates. eauto 6.
      + exact (errs_ok_nth k _ _ j _ He Ej).
      + apply nth_error_None in Ej. apply nth_error_lt in Hj.
        rewrite (proj1 He), <- m_addrs_length in Ej. lia.
  Qed.

  Lemma table_just k msg errs owners dups :
    msg_at k = Some msg -> env_ok k msg errs ->
    (if c_lmtp cfg
     then owners_ok k (rstages k 0 (m_rcpts msg)) owners /\ data_ups k (m_addrs msg) owners dups
     else dups = [] /\ nonerr (Eod k 0)) ->
    Just k (MMap (read_table (apply_updates (fromkeys (m_addrs msg)) (rcpt_updates (m_addrs msg) errs ++ dups))
                             (m_addrs msg))).
  Proof.
    intros Hm (Hn1 & Hn2 & He) Hd. apply Just_table; [exact Hm|]. intros i a Ha.
    destruct (rcpt_updates_just k msg errs a i He Ha) as [Hf Hne].
    destruct (tget_table (m_addrs msg) (rcpt_updates (m_addrs msg) errs ++ dups) a (nth_error_In _ _ Ha))
      as [(w & Hw & ->)|[Hno ->]].
    - apply in_app_or in Hw. destruct Hw as [Hw|Hw]; [now destruct (Hf w Hw) as (c & -> & Hj)|].
      destruct (c_lmtp cfg) eqn:Elm; [|now destruct Hd as [-> _]].
      destruct Hd as [Hown [Hu1 _]]. destruct (Hu1 a w Hw) as (j & cl & Hj & Hja & Hrd & ->).
      assert (Hownij : own msg i (N.to_nat j)) by (exists a; auto).
      destruct (is_error cl) eqn:Ee; cbn [RJust].
      + exists (N.to_nat j). split; [exact Hownij|]. exists (Eod k j), cl. rewrite N2Nat.id. auto.
      + rewrite Elm. split; [exact Hn1|]. split; [exact Hn2|]. left. exists (N.to_nat j).
        rewrite N2Nat.id. split; [exact Hownij|]. split; [apply Hown, Hj | eapply noerr_nonerr; eauto].
    - (* no update at all: every RCPT for this address was answered 2xx or 3xx; under LMTP a 2xx
         would own a data reply, hence an update *)
      assert (Hne' : forall j, own msg i j -> nonerr (Rcpt k (N.of_nat j)))
        by (apply Hne; intros w Hw; apply (Hno w), in_or_app; now left).
      cbn [RJust]. split; [exact Hn1|]. split; [exact Hn2|].
      destruct (c_lmtp cfg); [|split; [exact Hne' | apply Hd]].
      destruct Hd as [Hown [_ Hu2]]. right. intros j Hj.
      destruct (Hne' j Hj) as [H2|H3]; [exfalso|exact H3].
      destruct Hj as (a' & Ha' & Hj). rewrite Ha in Ha'. injection Ha' as <-.
      assert (Hin : In (N.of_nat j) owners).
      { apply Hown. split; [|exact H2]. apply rstages_in0. rewrite Nat2N.id, <- m_addrs_length.
        eapply nth_error_lt, Hj. }
      destruct (Hu2 (N.of_nat j) a Hin) as [w Hw]; [now rewrite Nat2N.id|].
      apply (Hno w), in_or_app. now right.
  Qed.

  Lemma deliver_spec k msg s :
    Quiet k s -> msg_at k = Some msg -> ok (deliver sc cfg k msg) s (fun _ => Quiet k) (EA k).
  Proof.
    intros (HI & _ & Hlr) Hm. unfold deliver.
    eapply ok_bind with (Q := fun r s' => Quiet k s' /\
      match r with
      | None => True
      | Some (errs, owners) => env_ok k msg errs /\ eod_ok k (rstages k 0 (m_rcpts msg)) owners s'
      end).
    - eapply ok_catch with (E0 := EA k).
      + eapply ok_bind; [apply (handle_encoding_spec k msg s HI Hm)|]. intros ? s0 ->.
        eapply ok_bind; [apply (send_envelope_spec k msg s HI Hlr Hm)|].
        intros errs s1 (HI1 & Hp1 & He & Hl1).
        eapply ok_bind; [apply (send_message_data_spec k s1 HI1 Hp1)|].
        intros owners s2 [H2 Ho]. apply ok_ret. split; [exact H2|]. split; [exact He|].
        unfold eod_ok in *. rewrite Hl1 in Ho. now destruct (c_lmtp cfg).
      + intros e s1 He. destruct (is_relay e) eqn:Er; [|exact He].
        eapply ok_bind; [apply (set_failure_spec k msg e s1 He Er Hm)|]. intros ? s2 HI2.
        eapply ok_bind; [apply (r_rset_spec k s2 HI2)|]. intros ? s3 H3. now apply ok_ret.
    - intros [[errs owners]|] s1 [(HI1 & Hp1 & Hl1) Hr1]; [|now apply ok_ret].
      destruct Hr1 as [He Ho]. unfold eod_ok in Ho. destruct (c_lmtp cfg) eqn:Elm.
      + destruct Ho as [Hown Hfl].
        eapply ok_bind; [apply (lmtp_data_spec k (m_addrs msg) (EA k) owners s1); [apply HI1|]|].
        { intros j Hj. split; [exact (Hfl j Hj)|].
          rewrite m_addrs_length. destruct (proj1 (Hown j) Hj) as [Hr _]. now apply rstages_in0 in Hr. }
        intros [dups had] s2 [-> Hu]. cbn [fst snd] in *.
        eapply ok_bind; [apply (set_result_spec k s1 _ (EA k) HI1), (table_just k msg errs owners dups Hm He);
                         rewrite Elm; auto|].
        intros ? s3 (HI3 & Hp3 & Hl3). destruct had; [now apply r_rset_spec|].
        apply ok_ret. split; [exact HI3|]. split; congruence.
      + rewrite <- (app_nil_r (rcpt_updates _ _)).
        eapply ok_weaken; [apply (set_result_spec k s1 _ (EA k) HI1), (table_just k msg errs owners [] Hm He);
                           rewrite Elm; auto| |auto].
        intros ? s2 (HI2 & Hp2 & Hl2). split; [exact HI2|]. split; congruence.
  Qed.

  Lemma check_server_timeout_spec k s :
    Inv k s ->
    ok (check_server_timeout sc k) s (fun b s' => if b then results_ok s' else s' = s) (EA k).
  Proof.
    intros HI. unfold check_server_timeout.
    assert (G : ok (mcatch (cmd (Idle k) ;;; flush_pipeline sc ;;; mret true) is_smtp (fun _ => mret true)) s
                   (fun b s' => if b then results_ok s' else s' = s) (EA k)).
    { eapply ok_catch with (E0 := EA k).
      - apply -> @ok_assoc.
        eapply ok_bind; [apply ok_EN, (cmd_flush_spec k (Idle k) s HI); right; reflexivity|].
        intros ? s1 (HI1 & _). apply ok_ret. exact (i_res _ _ HI1).
      -
        intros e s1 He. destruct e; try exact He. apply ok_ret. exact (proj1 (proj2 (proj2 He))). }
    destruct (reply sc (Idle k)); try exact G. now apply ok_ret.
  Qed.

  (* what the except arms of _run need of an abort *)
  Definition EF (e : abort) (s : st) : Prop := Cause (cur s) e /\ results_ok s.
  Lemma ok_EF {A} k (m : M A) s Q : ok m s Q (EA k) -> ok m s Q EF.
  Proof.
    intros H. eapply ok_weaken; [exact H | auto|]. intros e s' (Hc & _ & Hr & <- & _). now split.
  Qed.

  Lemma run_loop_spec : forall rest k j s,
    Quiet j s ->
    (forall i msg, nth_error rest i = Some msg -> msg_at (k + N.of_nat i) = Some msg) ->
    ok (run_loop sc cfg rest k) s (fun _ => results_ok) EF.
  Proof.
    induction rest as [|msg rest IH]; intros k j s HL Hmsgs; cbn [run_loop]; [exact (i_res _ _ (proj1 HL))|].
    assert (Hm : msg_at k = Some msg) by (rewrite <- (Hmsgs 0%nat msg eq_refl); f_equal; lia).
    eapply ok_bind_eq; [reflexivity|]. pose proof (Quiet_cur j k s HL) as HI0.
    eapply ok_bind; [apply (ok_EF k), (check_server_timeout_spec k _ (proj1 HI0))|].
    intros [|] s1 H1; [now apply ok_ret|]. subst s1.
    eapply ok_bind; [apply (ok_EF k), (deliver_spec k msg _ HI0 Hm)|].
    intros ? s2 H2. destruct (c_reuse cfg); [|exact (i_res _ _ (proj1 H2))].
    apply (IH _ k _ H2).
    intros i m' Hn. replace (k + 1 + N.of_nat i) with (k + N.of_nat (S i)) by lia. exact (Hmsgs (S i) m' Hn).
  Qed.

  Lemma trans_of_cause k e :
    Cause k e -> (e = ASmtp \/ e = ATimeout \/ e = ASock) -> TransCause k.
  Proof.
    intros Hc [->|[->| ->]]; cbn in Hc.
    - destruct Hc as (stg & Hr & [H|[H|H]]); left; exists stg; (split; [exact Hr|]); unfold istrans; auto.
    - destruct Hc as [(stg & Hr & H)|H]; [left; exists stg; split; [exact Hr|]; unfold istrans; auto 6|].
      right. congruence.
    - right. congruence.
  Qed.

  Lemma set_if_unset_results r s :
    results (snd (set_if_unset r s)) =
    match lookup_res (results s) (cur s) with Some _ => results s | None => (cur s, r) :: results s end.
  Proof. unfold set_if_unset, mbind, mget, ready. cbn. now destruct (lookup_res (results s) (cur s)). Qed.

  Lemma run_arms_spec e s : EF e s -> results_ok (snd (run_arms e s)).
  Proof.
    intros [Hca Hr].
    assert (Hset : forall r, Just (cur s) r -> results_ok (snd (set_if_unset r s))).
    { intros r Hj. pose proof (set_if_unset_results r s) as E.
      destruct (lookup_res (results s) (cur s)); [eapply results_ok_same | eapply results_ok_cons]; eauto. }
    destruct e; cbn [run_arms]; try (apply Hset; cbn; eapply trans_of_cause; eauto).
    - eapply results_ok_cons; [reflexivity | exact Hr | exact Hca].
    - eapply results_ok_cons; [reflexivity | exact Hr | apply Hca].
    - apply Hset, Hca.
  Qed.

  Lemma flush_results s : results (snd (flush_pipeline sc s)) = results s /\
                          filled_ok s -> True.
  Proof. auto. Qed.

  Lemma r_disconnect_results s : results (snd (r_disconnect sc s)) = results s.
  Proof.
    unfold r_disconnect, mcatch, c_quit, mbind. rewrite cmd_eq. cbn. unfold flush_pipeline. cbn.
    destruct (flush_go sc (pend s ++ [Quit]) (filled s)) as [[r p'] f']. destruct r as [e|]; reflexivity.
  Qed.

  Lemma Inv_st0 : Inv 0 st0.
  Proof.
    constructor; cbn; auto.
    - intros stg c. discriminate.
    - intros k r. discriminate.
    - intros ? [].
    - intros ? [].
  Qed.

  Lemma run_client_results r s :
    msgs <> [] -> (r_connect cfg ;;; r_handshake sc cfg ;;; run_loop sc cfg msgs 0) st0 = (r, s) ->
    results (run_client sc cfg msgs) = results (match r with inl _ => s | inr e => snd (run_arms e s) end).
  Proof.
    intros Hne Hrun. unfold run_client. destruct msgs; [congruence|]. rewrite Hrun.
    destruct (c_conn cfg); [apply r_disconnect_results | reflexivity..].
  Qed.

  Theorem run_results_ok : results_ok (run_client sc cfg msgs).
  Proof.
    destruct msgs as [|m0 ms] eqn:Em; [intros k r; discriminate|]. rewrite <- Em.
    assert (G : ok (r_connect cfg ;;; r_handshake sc cfg ;;; run_loop sc cfg msgs 0) st0 (fun _ => results_ok) EF).
    { unfold r_connect. destruct (c_conn cfg) eqn:Ec.
      - eapply ok_bind_eq; [reflexivity|].
        eapply ok_bind; [apply (ok_EF 0), (r_handshake_spec 0 st0 st0), HP_refl; [apply Inv_st0 | reflexivity]|].
        intros ? s1 (HI1 & Hp1 & _ & Hl1). apply (run_loop_spec msgs 0 0); [split; [exact HI1 | auto]|].
        intros j msg Hn. unfold msg_at. now rewrite N.add_0_l, Nat2N.id.
      - eapply ok_bind_raise; [reflexivity|]. split; [exact Ec | apply Inv_st0].
      - eapply ok_bind_raise; [reflexivity|]. split; [right; exact Ec | apply Inv_st0]. }
    unfold ok in G.
    destruct ((r_connect cfg ;;; r_handshake sc cfg ;;; run_loop sc cfg msgs 0) st0) as [r s1] eqn:Hrun.
    eapply results_ok_same; [apply (run_client_results r s1); [congruence | exact Hrun]|].
    destruct r as [u|e]; [exact G | apply run_arms_spec, G].
  Qed.
End Smtp.

Lemma final_entry r i f : final_of r i = f -> f <> FQueued -> f <> FOther -> f <> FNoResult ->
  (exists c, r = Some (MExc c) /\ f = of_cls c) \/
  (exists l t, r = Some (MMap l) /\ nth_error l i = Some t /\ f = of_tres t).
Proof.
  destruct r as [[l|c|]|]; cbn; intros <- H1 H2 H3; try congruence.
  - destruct (nth_error l i) as [t|] eqn:E; [|congruence]. right. eauto.
  - left. eauto.
Qed.

(* what each report for position i of request m rests on; every SMTP / LMTP statement of the
   property is read off this *)
Lemma smtp_final_inv sc cfg msgs m i :
  match smtp_final sc cfg msgs m i with
  | FDelivered => exists msg, msg_at msgs m = Some msg /\ (i < length (m_rcpts msg))%nat /\
                              RJust sc cfg m msg i TDelivered
  | FPermanent => PermCause sc cfg msgs m
  | FTransient => TransCause sc cfg m
  | FOther => ForeignCause msgs m
  | FNoResult => forall msg, msg_at msgs m = Some msg -> (length (m_rcpts msg) <= i)%nat
  | FQueued => True
  end.
Proof.
  unfold smtp_final. pose proof (run_results_ok sc cfg msgs m) as Hok.
  destruct (lookup_res (results (run_client sc cfg msgs)) m) as [[l|c|]|]; cbn;
    [| |exact (Hok _ eq_refl)|exact I].
  - destruct (Hok _ eq_refl) as (msg & Hm & Hlen & Hj).
    destruct (nth_error l i) as [[|c|]|] eqn:En; cbn.
    + exists msg. split; [exact Hm|]. split; [rewrite <- Hlen; eapply nth_error_lt, En | exact (Hj _ _ En)].
    + destruct (Hj _ _ En) as (j & _ & Hf). apply (occ_failed_excjust sc cfg msgs) in Hf. now destruct c.
    + elim (Hj _ _ En).
    + intros msg' Hm'. rewrite Hm in Hm'. injection Hm' as <-. rewrite <- Hlen. now apply nth_error_None.
  - specialize (Hok _ eq_refl). now destruct c.
Qed.

Lemma smtp_delivered sc cfg msgs m msg i :
  msg_at msgs m = Some msg -> smtp_final sc cfg msgs m i = FDelivered ->
  own msg i i /\ RJust sc cfg m msg i TDelivered.
Proof.
  intros Hm H. pose proof (smtp_final_inv sc cfg msgs m i) as G. rewrite H in G.
  destruct G as (msg' & Hm' & Hi & Hj). rewrite Hm in Hm'. injection Hm' as <-. split; [|exact Hj].
  rewrite <- m_addrs_length in Hi.
  destruct (nth_error (m_addrs msg) i) as [a|] eqn:E; [exists a; auto | apply nth_error_None in E; lia].
Qed.

Lemma own_nodup msg i j : NoDup (m_addrs msg) -> own msg i j -> j = i.
Proof.
  intros Hnd (a & Hi & Hj). symmetry. eapply (proj1 (NoDup_nth_error (m_addrs msg)) Hnd).
  - eapply nth_error_lt, Hi.
  - congruence.
Qed.

(* the statement over the reply alphabet of the property: no 3xx where the protocol defines none,
   at the occurrences of this address *)
Definition no_r3_own (sc : script) (cfg : config) (m : N) (msg : message) (i : nat) : Prop :=
  reply sc (Mail m) <> R3 /\
  forall j, own msg i j -> reply sc (Rcpt m (N.of_nat j)) <> R3 /\
                           reply sc (Eod m (eodix cfg (N.of_nat j))) <> R3.

Theorem smtp_success_sound sc cfg msgs m msg i :
  msg_at msgs m = Some msg -> no_r3_own sc cfg m msg i ->
  smtp_final sc cfg msgs m i = FDelivered ->
  reply sc (Mail m) = R2 /\ (reply sc (Data m) = R2 \/ reply sc (Data m) = R3) /\
  if c_lmtp cfg
  then exists j, own msg i j /\ reply sc (Rcpt m (N.of_nat j)) = R2 /\ reply sc (Eod m (N.of_nat j)) = R2
  else (forall j, own msg i j -> reply sc (Rcpt m (N.of_nat j)) = R2) /\ reply sc (Eod m 0) = R2.
Proof.
  intros Hm (H1 & H2) H. destruct (smtp_delivered sc cfg msgs m msg i Hm H) as (Hii & Hml & Hd & Hr).
  split; [destruct Hml; [assumption | contradiction]|]. split; [exact Hd|].
  unfold eodix in H2. destruct (c_lmtp cfg).
  - destruct Hr as [(j & Hj & Hr2 & He)|Hall].
    + exists j. split; [exact Hj|]. split; [exact Hr2|]. destruct He; [assumption|].
      now elim (proj2 (H2 j Hj)).
    + elim (proj1 (H2 i Hii)). now apply Hall.
  - destruct Hr as [Hall He]. split.
    + intros j Hj. destruct (Hall j Hj); [assumption|]. now elim (proj1 (H2 j Hj)).
    + destruct He; [assumption|]. now elim (proj2 (H2 i Hii)).
Qed.

Corollary smtp_success_sound_nodup sc cfg msgs m msg i :
  msg_at msgs m = Some msg -> NoDup (m_addrs msg) ->
  reply sc (Mail m) <> R3 -> reply sc (Rcpt m (N.of_nat i)) <> R3 ->
  reply sc (Eod m (eodix cfg (N.of_nat i))) <> R3 ->
  smtp_final sc cfg msgs m i = FDelivered ->
  reply sc (Mail m) = R2 /\ reply sc (Rcpt m (N.of_nat i)) = R2 /\
  (reply sc (Data m) = R2 \/ reply sc (Data m) = R3) /\
  reply sc (Eod m (eodix cfg (N.of_nat i))) = R2.
Proof.
  intros Hm Hnd H1 H2 H3 H. destruct (smtp_delivered sc cfg msgs m msg i Hm H) as [Hii _].
  assert (Hg : no_r3_own sc cfg m msg i).
  { split; [exact H1|]. intros j Hj. rewrite (own_nodup msg i j Hnd Hj). auto. }
  destruct (smtp_success_sound sc cfg msgs m msg i Hm Hg H) as (Hml & Hd & Hr).
  split; [exact Hml|]. unfold eodix in *. destruct (c_lmtp cfg).
  - destruct Hr as (j & Hj & Hr2 & He). rewrite (own_nodup msg i j Hnd Hj) in Hr2, He. auto.
  - destruct Hr as [Hall He]. auto.
Qed.

(* every position of every request ends in a result, a relay error, or back on the pool queue:
   never a foreign exception, never a missing key in the mapping *)
Theorem smtp_total sc cfg msgs m msg i :
  msg_at msgs m = Some msg -> (i < length (m_rcpts msg))%nat ->
  let f := smtp_final sc cfg msgs m i in
  f = FDelivered \/ f = FPermanent \/ f = FTransient \/ f = FQueued.
Proof.
  intros Hm Hi. cbn zeta. pose proof (smtp_final_inv sc cfg msgs m i) as G.
  destruct (smtp_final sc cfg msgs m i); auto; exfalso.
  - destruct G as (msg' & Hm' & Hnil). rewrite Hm in Hm'. injection Hm' as <-. rewrite Hnil in Hi. inversion Hi.
  - specialize (G msg Hm). lia.
Qed.

(* "if" directions: an address all of whose RCPTs were rejected (or a rejected MAIL / DATA) is never
   reported delivered; with no cause of the other class the report has the class of the rejection *)
Definition rcpt_err (sc : script) (stg : stage) : Prop :=
  reply sc stg = R4 \/ reply sc stg = R5 \/ reply sc stg = R500.
Definition rejected (sc : script) (m : N) (msg : message) (i : nat) : Prop :=
  (forall j, own msg i j -> rcpt_err sc (Rcpt m (N.of_nat j))) \/ rcpt_err sc (Mail m) \/ rcpt_err sc (Data m).

Lemma smtp_rejected_not_delivered sc cfg msgs m msg i :
  msg_at msgs m = Some msg -> rejected sc m msg i -> smtp_final sc cfg msgs m i <> FDelivered.
Proof.
  intros Hm H E. destruct (smtp_delivered sc cfg msgs m msg i Hm E) as (Hii & Hml & Hd & Hr).
  unfold rejected, nonerr, rcpt_err in *.
  destruct H as [H|[H|H]]; [|intuition congruence|intuition congruence].
  destruct (c_lmtp cfg).
  - destruct Hr as [(j & Hj & Hr2 & _)|Hall].
    + specialize (H j Hj). intuition congruence.
    + specialize (H i Hii). specialize (Hall i Hii). intuition congruence.
  - destruct Hr as [Hall _]. specialize (H i Hii). specialize (Hall i Hii). intuition congruence.
Qed.
Lemma smtp_rejected_class sc cfg msgs m msg i :
  msg_at msgs m = Some msg -> (i < length (m_rcpts msg))%nat -> rejected sc m msg i ->
  smtp_final sc cfg msgs m i <> FQueued ->
  (smtp_final sc cfg msgs m i = FPermanent /\ PermCause sc cfg msgs m) \/
  (smtp_final sc cfg msgs m i = FTransient /\ TransCause sc cfg m).
Proof.
  intros Hm Hi Hrej Hq. pose proof (smtp_final_inv sc cfg msgs m i) as G.
  destruct (smtp_total sc cfg msgs m msg i Hm Hi) as [H|[H|[H|H]]]; [|rewrite H in G; auto..|contradiction].
  now elim (smtp_rejected_not_delivered sc cfg msgs m msg i Hm Hrej).
Qed.

Theorem attempt_conns_sound cfg scs msg r :
  attempt_conns cfg scs msg = Some r ->
  exists sc, In sc scs /\ lookup_res (results (run_client sc cfg [msg])) 0 = Some r.
Proof.
  induction scs as [|sc scs IH]; cbn [attempt_conns]; [discriminate|].
  destruct (lookup_res (results (run_client sc cfg [msg])) 0) as [r'|] eqn:E.
  - intros [= <-]. exists sc. split; [now left | exact E].
  - intros H. destruct (IH H) as (sc' & Hin & Hr). exists sc'. split; [now right | exact Hr].
Qed.

Lemma run_arms_broken e s :
  (e = ASmtp \/ e = ATimeout \/ e = ASock) -> lookup_res (results s) (cur s) = None ->
  results (snd (run_arms e s)) = (cur s, MExc Trans) :: results s.
Proof. intros [->|[->| ->]] H; cbn [run_arms]; now rewrite set_if_unset_results, H. Qed.

(* scripts, a configuration and a message for the examples below and for the refuting script of prop/C11 *)
Definition sc_default (s : stage) : outcome :=
  match s with Idle _ => Stall | Data _ => R3 | _ => R2 end.
Definition sc_eod3 : script :=
  mkScript (fun s => match s with Eod _ _ => R3 | _ => sc_default s end) (fun _ => ENone) no_exts no_exts.
Definition cfg_plain : config := mkConfig false false false false false ConnOk.
Definition msg1 : message := mkMsg true [(0, true)] false.

(* an address that cannot be encoded, a bad reply code: reported, never a foreign exception *)
Definition sc_badcode : script :=
  mkScript (fun s => match s with Banner => BadCode | _ => sc_default s end) (fun _ => ENone) no_exts no_exts.
Example smtp_example_badcode_address :
  smtp_final sc_badcode cfg_plain [msg1] 0 0 = FTransient /\
  smtp_final (mkScript sc_default (fun _ => ENone) no_exts no_exts) cfg_plain [mkMsg true [(0, true); (1, false)] false] 0 0 = FPermanent /\
  smtp_final (mkScript sc_default (fun _ => ENone) no_exts no_exts) cfg_plain [mkMsg false [(0, true)] false] 0 0 = FPermanent.
Proof. vm_compute. repeat split; reflexivity. Qed.

Definition sc_mixed : script :=
  mkScript (fun s => match s with Rcpt 0 0 => R5 | Rcpt 0 1 => R4 | _ => sc_default s end)
           (fun _ => ENone) (mkExts true false false true) no_exts.
Example smtp_example_mixed :
  let msgs := [mkMsg true [(0, true); (1, true)] false] in
  smtp_final sc_mixed cfg_plain msgs 0 0 = FPermanent /\ smtp_final sc_mixed cfg_plain msgs 0 1 = FTransient.
Proof. cbn zeta. split; vm_compute; reflexivity. Qed.
Example smtp_example_delivered :
  smtp_final (mkScript sc_default (fun _ => ENone) (mkExts true false false true) no_exts)
             (mkConfig true false false false true ConnOk) [msg1; mkMsg true [(0, true); (1, true)] false] 1 1 = FDelivered /\
  no_r3_own (mkScript sc_default (fun _ => ENone) no_exts no_exts) cfg_plain 0 msg1 0.
Proof. split; [vm_compute; reflexivity|]. split; [discriminate|]. intros j _. split; discriminate. Qed.
(* the same address twice: [alice; alice; nobody] answered 250, 250, 550 - and 250, 550, 250 *)
Definition sc_rcpt (j : N) (o : outcome) : script :=
  mkScript (fun s => match s with Rcpt 0 k => if k =? j then o else R2 | _ => sc_default s end) (fun _ => ENone) no_exts no_exts.
Example smtp_example_duplicates :
  let msgs := [mkMsg true [(7, true); (7, true); (9, true)] false] in
  let lmtp := mkConfig true false false false false ConnOk in
  (smtp_final (sc_rcpt 2 R5) cfg_plain msgs 0 0, smtp_final (sc_rcpt 2 R5) cfg_plain msgs 0 1,
   smtp_final (sc_rcpt 2 R5) cfg_plain msgs 0 2) = (FDelivered, FDelivered, FPermanent) /\
  (smtp_final (sc_rcpt 1 R5) cfg_plain msgs 0 0, smtp_final (sc_rcpt 1 R5) cfg_plain msgs 0 1,
   smtp_final (sc_rcpt 1 R5) cfg_plain msgs 0 2) = (FPermanent, FPermanent, FDelivered) /\
  (smtp_final (sc_rcpt 1 R5) lmtp msgs 0 0, smtp_final (sc_rcpt 1 R5) lmtp msgs 0 1,
   smtp_final (sc_rcpt 1 R5) lmtp msgs 0 2) = (FDelivered, FDelivered, FDelivered).
Proof. cbn zeta. repeat split; vm_compute; reflexivity. Qed.

Example smtp_hangup_example :
  let sc := mkScript (fun s => match s with Ehlo => R500 | Rcpt 0 0 => R5 | Data 0 => Disconnect | _ => sc_default s end)
                     (fun _ => ENone) no_exts no_exts in
  let msgs := [mkMsg true [(0, true); (1, true)] false] in
  (exists s, (r_connect cfg_plain ;;; r_handshake sc cfg_plain ;;; run_loop sc cfg_plain msgs 0) st0 = (inr ASmtp, s) /\
             lookup_res (results s) (cur s) = None /\ cur s = 0) /\
  smtp_final sc cfg_plain msgs 0 1 = FTransient.
Proof.
  cbn zeta. split; [|vm_compute; reflexivity].
  eexists. split; [vm_compute; reflexivity|]. split; vm_compute; reflexivity.
Qed.

Example esc_example :
  let sc := mkScript (fun s => match s with Rcpt 0 0 => R5 | Rcpt 0 1 => R4 | _ => sc_default s end)
                     (fun s => match s with Rcpt 0 0 => E4 | Rcpt 0 1 => E5 | _ => ENone end) no_exts no_exts in
  let msgs := [mkMsg true [(0, true); (1, true)] false] in
  smtp_final sc cfg_plain msgs 0 0 = FPermanent /\ smtp_final sc cfg_plain msgs 0 1 = FTransient /\
  http_attempt (HResp 500 (HCode 550 false E4)) = HExc Perm.
Proof. cbn zeta. repeat split; vm_compute; reflexivity. Qed.
