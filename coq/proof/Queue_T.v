(* Not forgotten: in every reachable state every stored message is in the
   timetable or has a greenlet working on it (enqueue in progress, delivery
   attempt / retry bookkeeping in progress, dispatched read, pending removal).
   [Tinv] holds along every run from a state that satisfies it ([run_T]): a greenlet of message i
   taking a step goes through [Tinv_replace] (its task is replaced by others of i, or by none), a
   batch leaving the timetable through [T_batch].  After a restart [restart_resumes_at] gives [Tinv]
   for the state the start-up load leaves, and [run_T] carries it on. *)
From Coq Require Import List NArith Bool.
From SV Require Import model.Queue proof.List_lemmas proof.Queue_base.
Import ListNotations.
Open Scope N_scope.

Definition stored (s : state) (i : id) : Prop := st_get (s_store s) i <> None.
Definition is_dq (t : task) : bool := match t with TDequeue _ _ => true | _ => false end.
(* tasks that were started from a message found in (or just written to) storage *)
Definition is_src (t : task) : bool := negb (is_dq t) && negb (is_remove t).

Record Tinv (s : state) : Prop := mkTinv {
  t_store_lt : forall i, stored s i -> i < s_next s;
  t_removed_lt : forall i, In i (g_removed s) -> i < s_next s;
  t_tasks_lt : forall t, In t (s_tasks s) -> is_dq t = false -> task_id t < s_next s;
  t_removed_gone : forall i, In i (g_removed s) -> st_get (s_store s) i = None;
  t_src : forall t, In t (s_tasks s) -> is_src t = true -> stored s (task_id t) \/ In (task_id t) (g_removed s);
  t_active : forall i, mem i (s_active s) = true -> In i (work_ids (s_tasks s)) \/ In i (g_removed s);
  t_qids : forall i, mem i (s_qids s) = true -> In i (qids_of (s_queued s));
  t_tracked : forall i, stored s i -> In i (qids_of (s_queued s)) \/ In i (all_ids (s_tasks s))
}.

Lemma work_ids_app : forall a b, work_ids (a ++ b) = work_ids a ++ work_ids b.
Proof. intros. apply ids_of_app. Qed.

Lemma work_in_all : forall j ts, In j (work_ids ts) -> In j (all_ids ts).
Proof.
  intros j ts H. apply in_map_iff in H. destruct H as [t [Ht Hf]]. apply filter_In in Hf.
  apply in_map_iff. exists t. tauto.
Qed.

Lemma In_all_drop : forall j l1 t l2, In j (all_ids (l1 ++ t :: l2)) -> j <> task_id t -> In j (all_ids (l1 ++ l2)).
Proof.
  intros j l1 t l2 H Hn. unfold all_ids in *. rewrite map_app in *. apply in_elt_inv in H. destruct H; [congruence|assumption].
Qed.

Lemma In_work_drop : forall j l1 t l2, In j (work_ids (l1 ++ t :: l2)) -> j <> task_id t -> In j (work_ids (l1 ++ l2)).
Proof.
  intros j l1 t l2 H Hn. rewrite work_ids_app in *. unfold work_ids at 2 in H. rewrite ids_of_cons in H.
  destruct (is_work t); [apply in_elt_inv in H; destruct H; [congruence|assumption]|exact H].
Qed.

Lemma mem_del_true : forall j i l, mem j (del i l) = true -> mem j l = true.
Proof. intros j i l H. apply mem_In. apply mem_In, In_del in H. tauto. Qed.

Definition Tview (s : state) := (s_queued s, s_qids s, s_active s, s_tasks s, s_next s, g_removed s).

Lemma Tinv_ext : forall s s', Tinv s -> s_store s' = s_store s -> Tview s' = Tview s -> Tinv s'.
Proof.
  intros s s' H E1 E. inversion E as [[E2 E3 E4 E5 E6 E7]]. destruct H.
  constructor; unfold stored in *; rewrite ?E1, ?E2, ?E3, ?E4, ?E5, ?E6, ?E7; auto.
Qed.

Lemma aq_queued_In : forall s ts i j, In j (qids_of (s_queued s)) -> In j (qids_of (s_queued (add_queued s ts i))).
Proof.
  intros s ts i j H. destruct (add_queuedP s ts i) as [_|_ _]; [exact H|]. apply In_qids_insort. right. exact H.
Qed.

Lemma aq_tracks : forall s ts i, (forall k, mem k (s_qids s) = true -> In k (qids_of (s_queued s))) ->
  mem i (s_active s) = false -> In i (qids_of (s_queued (add_queued s ts i))).
Proof.
  intros s ts i Hq Ha. destruct (add_queuedP s ts i) as [E|_ _].
  - apply Hq. rewrite Ha, orb_false_r in E. exact E.
  - apply In_qids_insort. left. reflexivity.
Qed.

Lemma aq_qids_ok : forall s ts i, (forall k, mem k (s_qids s) = true -> In k (qids_of (s_queued s))) ->
  forall k, mem k (s_qids (add_queued s ts i)) = true -> In k (qids_of (s_queued (add_queued s ts i))).
Proof.
  intros s ts i Hq k. destruct (add_queuedP s ts i) as [_|_ _]; [apply Hq|]. proj. cbn [mem].
  intro H. apply In_qids_insort. apply orb_true_iff in H. destruct H as [H|H]; [left; apply N.eqb_eq; exact H|right; apply Hq; exact H].
Qed.

Lemma Tinv_add_queued : forall s ts i, Tinv s -> Tinv (add_queued s ts i).
Proof.
  intros s ts i H. destruct H. constructor; unfold stored in *; rewrite ?aq_store, ?aq_next, ?aq_removed, ?aq_tasks, ?aq_active; auto.
  - apply aq_qids_ok. assumption.
  - intros j Hj. destruct (t_tracked0 j Hj) as [Hq|Ht]; [left; apply aq_queued_In; exact Hq|right; exact Ht].
Qed.

Lemma T_set_queue : forall s q, Tinv s ->
  (forall j, stored s j -> In j (qids_of (s_queued s)) -> In j (qids_of q) \/ In j (all_ids (s_tasks s))) ->
  Tinv (set_queue s q (qids_of q)).
Proof.
  intros s q H Hq. destruct H. constructor; auto.
  - intros j Hj. apply mem_In. exact Hj.
  - intros j Hj. destruct (t_tracked0 j Hj) as [Hqq|Ht]; [exact (Hq j Hj Hqq)|right; exact Ht].
Qed.

Lemma dispatch_T : forall s i c, Tinv s -> Tinv (dispatch s i c).
Proof.
  intros s i c H. destruct (dispatchP s i c) as [_|_]; [exact H|].
  destruct H. constructor; unfold stored in *; proj; auto.
  - intros t Ht Hd. apply in_app_iff in Ht. destruct Ht as [Ht|[<-|[]]]; [auto|discriminate].
  - intros t Ht Hd. apply in_app_iff in Ht. destruct Ht as [Ht|[<-|[]]]; [auto|discriminate].
  - intros j Hj. rewrite work_ids_app. cbn [mem] in Hj. apply orb_true_iff in Hj. destruct Hj as [Hj|Hj].
    + apply N.eqb_eq in Hj. subst j. left. apply in_or_app. right. left. reflexivity.
    + destruct (t_active0 j Hj) as [Hw|Hr]; [left; apply in_or_app; left; exact Hw|right; exact Hr].
  - intros j Hj. rewrite all_ids_app. destruct (t_tracked0 j Hj) as [Hq|Ht]; [left; exact Hq|right; apply in_or_app; left; exact Ht].
Qed.

(* a batch is handed to _dispatch and leaves the front of the timetable: its ids are active now, so
   each has a task (the read just spawned, or the work that kept it active) or is gone from storage *)
Lemma T_batch : forall f d r s, Tinv s -> s_queued s = d ++ r -> Tinv (set_queue (dispatch_all f d s) r (qids_of r)).
Proof.
  intros f d r s H E. pose proof (dispatch_all_pres Tinv f d (fun s' e _ => dispatch_T s' _ _) s H) as H1.
  apply (T_set_queue _ _ H1). intros j Hj Hq.
  rewrite (dispatch_all_proj s_queued dispatch_queued), E in Hq. unfold qids_of in Hq. rewrite map_app in Hq.
  apply in_app_iff in Hq. destruct Hq as [Hd|Hr]; [right|left; exact Hr].
  destruct (t_active _ H1 j (dispatch_all_marks f d s j (or_intror Hd))) as [Hw|Hrm]; [exact (work_in_all _ _ Hw)|].
  elim Hj. exact (t_removed_gone _ H1 _ Hrm).
Qed.

(* A greenlet of message i takes a step: its task t is replaced by the tasks nt.  The hypotheses after [Tinv s], in
   order: the task lists before and after; the new tasks are of i, and i was stored unless t itself was
   started from a stored message; the id bound and the removal log are unchanged; storage holds the same
   ids; the timetable has lost no id and still covers queued_ids; active has changed at i only; the
   two clauses of [Tinv] that speak of i itself ([t_active], [t_tracked]) hold in s'. *)
Lemma Tinv_replace : forall s s' l1 t l2 nt, let i := task_id t in
  Tinv s -> s_tasks s = l1 ++ t :: l2 -> s_tasks s' = (l1 ++ l2) ++ nt ->
  (forall x, In x nt -> task_id x = i /\ (is_src t = true \/ stored s i)) ->
  s_next s' = s_next s -> g_removed s' = g_removed s ->
  (forall j, st_get (s_store s') j = None <-> st_get (s_store s) j = None) ->
  (forall j, In j (qids_of (s_queued s)) -> In j (qids_of (s_queued s'))) ->
  (forall j, mem j (s_qids s') = true -> In j (qids_of (s_queued s'))) ->
  (forall j, j <> i -> mem j (s_active s') = mem j (s_active s)) ->
  (mem i (s_active s') = true -> In i (work_ids ((l1 ++ l2) ++ nt)) \/ In i (g_removed s)) ->
  (stored s i -> In i (qids_of (s_queued s')) \/ In i (all_ids ((l1 ++ l2) ++ nt))) ->
  Tinv s'.
Proof.
  intros s s' l1 t l2 nt i H Ets Ets' Hnt Enext Erem Hst Hq Hqids Hact Hacti Htr.
  assert (Hin : In t (s_tasks s)) by (rewrite Ets; apply in_elt).
  assert (Hrest : forall x, In x (l1 ++ l2) -> In x (s_tasks s)) by (intros x Hx; rewrite Ets; apply In_rest, Hx).
  assert (Hnew : forall x, In x nt -> task_id x = i /\ i < s_next s /\ (stored s i \/ In i (g_removed s))).
  { intros x Hx. destruct (Hnt x Hx) as [E [A|A]]; (split; [exact E|]).
    - split; [|exact (t_src s H t Hin A)]. apply (t_tasks_lt s H t Hin). destruct t; try reflexivity; discriminate A.
    - split; [exact (t_store_lt s H i A)|left; exact A]. }
  destruct H. constructor; unfold stored in *; rewrite ?Enext, ?Erem, ?Ets'.
  - intros j Hj. apply t_store_lt0. rewrite <- Hst. exact Hj.
  - exact t_removed_lt0.
  - intros x Hx Hd. apply in_app_iff in Hx. destruct Hx as [Hx|Hx]; [auto|]. destruct (Hnew x Hx) as [-> [A _]]. exact A.
  - intros j Hj. apply Hst. apply t_removed_gone0. exact Hj.
  - intros x Hx Hs. rewrite Hst. apply in_app_iff in Hx. destruct Hx as [Hx|Hx]; [auto|]. destruct (Hnew x Hx) as [-> [_ A]]. exact A.
  - intros j Hj. destruct (N.eq_dec j i) as [->|E]; [exact (Hacti Hj)|].
    rewrite (Hact j E) in Hj. destruct (t_active0 j Hj) as [Hw|Hr]; [left|right; exact Hr].
    rewrite Ets in Hw. rewrite work_ids_app. apply in_or_app. left. exact (In_work_drop j l1 t l2 Hw E).
  - exact Hqids.
  - intros j Hj. rewrite Hst in Hj. destruct (N.eq_dec j i) as [->|E]; [exact (Htr Hj)|].
    destruct (t_tracked0 j Hj) as [Hqq|Ht]; [left; apply Hq; exact Hqq|right].
    rewrite Ets in Ht. rewrite all_ids_app. apply in_or_app. left. exact (In_all_drop j l1 t l2 Ht E).
Qed.

Lemma T_spawn : forall s s' l1 t l2 t',
  Tinv s -> s_tasks s = l1 ++ t :: l2 -> s_tasks s' = (l1 ++ l2) ++ [t'] ->
  (is_src t = true \/ stored s (task_id t)) -> is_work t' = true -> task_id t' = task_id t ->
  s_next s' = s_next s -> g_removed s' = g_removed s -> s_queued s' = s_queued s ->
  (forall j, st_get (s_store s') j = None <-> st_get (s_store s) j = None) ->
  (forall j, mem j (s_qids s') = true -> mem j (s_qids s) = true) ->
  (forall j, j <> task_id t -> mem j (s_active s') = mem j (s_active s)) ->
  Tinv s'.
Proof.
  intros s s' l1 t l2 t' H Ets Ets' Hsrc Hw Eid Enext Erem Eq Hst Hqids Hact.
  assert (Hin : forall ts, In (task_id t) (work_ids (ts ++ [t']))).
  { intro ts. rewrite work_ids_app. apply in_or_app. right. unfold work_ids. rewrite ids_of_cons, Hw, Eid. left. reflexivity. }
  apply (Tinv_replace s s' l1 t l2 [t'] H Ets Ets'); rewrite ?Eq; auto.
  - intros x [<-|[]]. split; assumption.
  - intros j Hj. apply (t_qids s H), Hqids, Hj.
  - intros _. right. apply work_in_all, Hin.
Qed.

Lemma T_requeue : forall s s1 l1 t l2 when,
  Tinv s -> s_tasks s = l1 ++ t :: l2 ->
  s_tasks s1 = l1 ++ l2 -> s_active s1 = del (task_id t) (s_active s) ->
  s_queued s1 = s_queued s -> s_qids s1 = s_qids s -> s_next s1 = s_next s -> g_removed s1 = g_removed s ->
  (forall j, st_get (s_store s1) j = None <-> st_get (s_store s) j = None) ->
  Tinv (add_queued s1 when (task_id t)).
Proof.
  intros s s1 l1 t l2 when H Ets Ets1 Eact Eq Eqi En Er Hst.
  assert (Hqi : forall k, mem k (s_qids s1) = true -> In k (qids_of (s_queued s1))) by (rewrite Eq, Eqi; exact (t_qids s H)).
  apply (Tinv_replace s _ l1 t l2 [] H Ets); rewrite ?aq_tasks, ?aq_next, ?aq_removed, ?aq_store, ?aq_active, ?app_nil_r; auto.
  - intros x [].
  - intros j Hj. apply aq_queued_In. rewrite Eq. exact Hj.
  - apply aq_qids_ok. exact Hqi.
  - intros j Hj. rewrite Eact. apply mem_del_other. exact Hj.
  - rewrite Eact, mem_del_same. discriminate.
  - intros _. left. apply aq_tracks; [exact Hqi|rewrite Eact; apply mem_del_same].
Qed.

(* store.remove of i has run: what storage said about i is now said by the removal log *)
Lemma T_removed : forall s i, Tinv s -> i < s_next s ->
  Tinv (mkState (st_del (s_store s) i) (s_queued s) (s_qids s) (s_active s) (s_tasks s) (s_sched s) (s_wake s)
                (s_clock s) (s_next s) (g_acc s) (g_deliv s) (g_fail s) (g_atts s) (i :: g_removed s)).
Proof.
  intros s i H Hlt. destruct H. constructor; unfold stored in *; proj; auto.
  - intros j Hj. apply t_store_lt0. intro A. apply Hj, st_get_del_none. right. exact A.
  - intros j [<-|Hj]; auto.
  - intros j Hj. apply st_get_del_none. destruct Hj as [<-|Hj]; auto.
  - intros x Hx Hs. destruct (t_src0 x Hx Hs) as [A|A]; [|right; right; exact A].
    destruct (N.eq_dec (task_id x) i) as [E|E]; [right; left; symmetry; exact E|left]. rewrite st_get_del_other by exact E. exact A.
  - intros j Hj. destruct (t_active0 j Hj) as [Hw|Hr]; [left; exact Hw|right; right; exact Hr].
  - intros j Hj. apply t_tracked0. intro A. apply Hj, st_get_del_none. right. exact A.
Qed.

Lemma step_T : forall s e, Tinv s -> Tinv (step s e).
Proof.
  intros s e H. destruct e; rewrite ?step_flush; cbn [step].
  - (* EWrite: the id handed out is at the bound, so it is neither stored nor removed yet *)
    assert (Hlt : forall x, x < s_next s -> x < s_next s + 1) by (intros x Hx; apply N.lt_lt_add_r, Hx).
    assert (Hold : forall i, i < s_next s -> st_get ((s_next s, mkMsg sender rcpts 0 ts) :: s_store s) i = st_get (s_store s) i).
    { intros i Hi. cbn [st_get]. destruct (N.eqb_spec i (s_next s)) as [->|]; [elim (N.lt_irrefl _ Hi)|reflexivity]. }
    destruct H. constructor; unfold stored in *; proj.
    + intros i Hi. cbn [st_get] in Hi. destruct (N.eqb_spec i (s_next s)) as [E|]; [rewrite E; apply N.lt_add_pos_r; reflexivity|auto].
    + auto.
    + intros x Hx Hd. apply in_app_iff in Hx. destruct Hx as [Hx|[<-|[]]]; [auto|apply N.lt_add_pos_r; reflexivity].
    + intros i Hi. rewrite Hold; auto.
    + intros x Hx Hs. apply in_app_iff in Hx. destruct Hx as [Hx|[<-|[]]].
      * rewrite Hold; [auto|]. apply t_tasks_lt0; [exact Hx|]. destruct x; try reflexivity; discriminate Hs.
      * left. cbn [task_id st_get]. rewrite N.eqb_refl. discriminate.
    + intros i Hi. rewrite work_ids_app. destruct (t_active0 i Hi) as [Hw|Hr]; [left; apply in_or_app; left; exact Hw|right; exact Hr].
    + exact t_qids0.
    + intros i Hi. rewrite all_ids_app. cbn [st_get] in Hi. destruct (N.eqb_spec i (s_next s)) as [E|]; [rewrite E|].
      * right. apply in_or_app. right. left. reflexivity.
      * destruct (t_tracked0 i Hi) as [Hq|Ht]; [left; exact Hq|right; apply in_or_app; left; exact Ht].
  - (* EEnqDone *)
    destruct (take_taskP (is_enq i) (s_tasks s)) as [|l1 t l2 E1 Hp]; [exact H|].
    destruct t; try discriminate Hp. apply N.eqb_eq in Hp. subst i0.
    proj. destruct (mem i (s_active s)) eqn:Em.
    + (* an attempt is in flight already: its task (or its completed removal) stands for i *)
      assert (Hwk : In i (work_ids (l1 ++ l2)) \/ In i (g_removed s)).
      { destruct (t_active s H i Em) as [Hw|Hr]; [left|right; exact Hr]. rewrite E1, work_ids_app in Hw. rewrite work_ids_app. exact Hw. }
      apply (Tinv_replace s _ l1 _ l2 [] H E1); proj; rewrite ?app_nil_r; auto using iff_refl, (t_qids s H).
      * intros x [].
      * intros Hs. right. destruct Hwk as [Hw|Hr]; [exact (work_in_all _ _ Hw)|elim Hs; exact (t_removed_gone s H _ Hr)].
    + eapply (T_spawn s _ l1 _ l2 _ H E1); proj; try reflexivity; auto using iff_refl, mem_cons_other.
  - (* ERelay: every outcome spawns one task of i and leaves storage alone ([iff_refl]); where it calls
       _remove, i leaves queued_ids and active ([mem_del_true], [mem_del_other]) *)
    destruct (take_taskP (is_attempt i) (s_tasks s)) as [|l1 t l2 E1 Hp]; [exact H|].
    destruct t; try discriminate Hp. apply N.eqb_eq in Hp. subst i0.
    destruct o; [| | | |destruct (pick is_temp rcpts res)];
      eapply (T_spawn s _ l1 _ l2 _ H E1); proj; try reflexivity; eauto using iff_refl, mem_del_true, mem_del_other.
  - (* EStep *)
    destruct (take_taskP (is_retry i) (s_tasks s)) as [|l1 t l2 E1 Hp]; [exact H|].
    assert (Ht : is_src t = true /\ task_id t = i) by (destruct t; try discriminate Hp; apply N.eqb_eq in Hp; auto).
    destruct Ht as [Hsrc <-].
    destruct (st_get (s_store s) (task_id t)) eqn:Eg.
    2:{ (* the message is gone (so it was removed): the storage call fails, the greenlet dies *)
        apply (Tinv_replace s _ l1 _ l2 [] H E1); proj; rewrite ?app_nil_r; auto using iff_refl, (t_qids s H).
        - intros x [].
        - intros _. right. assert (Hin : In t (s_tasks s)) by (rewrite E1; apply in_elt).
          destruct (t_src s H t Hin Hsrc) as [A|A]; [elim A; exact Eg|exact A]. }
    (* each step rewrites the message of i, which stays stored ([st_get_upd_none]) *)
    destruct t as [| |? ? ? ? |? ? [[]|] ?|? ? ? ?| | |]; try discriminate Hp; cbn [task_id] in *.
    + destruct b; eapply (T_spawn s _ l1 _ l2 _ H E1); proj; try reflexivity; eauto using st_get_upd_none, mem_del_true, mem_del_other.
    + eapply (T_spawn s _ l1 _ l2 _ H E1); proj; try reflexivity; auto using st_get_upd_none.
    + apply (T_requeue s _ l1 _ l2 when H E1); proj; auto using st_get_upd_none.
    + apply (T_requeue s _ l1 _ l2 when H E1); proj; auto using st_get_upd_none.
  - (* EGet *)
    destruct (take_taskP (is_dequeue i) (s_tasks s)) as [|l1 t l2 E1 Hp]; [exact H|].
    destruct t; try discriminate Hp. apply N.eqb_eq in Hp. subst i0.
    destruct (st_get (s_store s) i) as [m|] eqn:Eg.
    + eapply (T_spawn s _ l1 _ l2 _ H E1); proj; try reflexivity; auto using iff_refl.
      right. unfold stored. cbn [task_id]. rewrite Eg. discriminate.
    + apply (Tinv_replace s _ l1 _ l2 [] H E1); proj; rewrite ?app_nil_r; auto using iff_refl, (t_qids s H), mem_del_other.
      * intros x [].
      * cbn [task_id]. rewrite mem_del_same. discriminate.
  - (* ERemove: the removal is logged, then its greenlet ends *)
    destruct (take_taskP (is_rm i) (s_tasks s)) as [|l1 t l2 E1 Hp]; [exact H|].
    assert (Ht : is_dq t = false /\ task_id t = i) by (destruct t; try discriminate Hp; apply N.eqb_eq in Hp; auto).
    destruct Ht as [Hd <-].
    assert (Hlt : task_id t < s_next s) by (apply (t_tasks_lt s H); [rewrite E1; apply in_elt|exact Hd]).
    apply (Tinv_replace _ _ l1 t l2 [] (T_removed s _ H Hlt) E1); proj; rewrite ?app_nil_r; auto using iff_refl, (t_qids s H).
    + intros x [].
    + intros _. right. left. reflexivity.
    + intros Hs. elim Hs. apply st_get_del_same.
  - (* ETick *)
    apply (tick_inv Tinv s H); [intros s' sc Hs'; apply (Tinv_ext _ _ Hs'); reflexivity|]. intros d r E _.
    exact (T_batch _ d r s H E).
  - (* EWakeup *) apply (wakeup_inv Tinv s H), (Tinv_ext s _ H); reflexivity.
  - (* EAdvance *) apply (Tinv_ext s _ H); reflexivity.
  - (* EAnnounce *) apply Tinv_add_queued. exact H.
  - (* EFlush *)
    apply (T_batch _ _ []); [apply (Tinv_ext s _ H); reflexivity|]. symmetry. apply app_nil_r.
Qed.

Lemma init_T : Tinv init.
Proof. constructor; unfold stored; cbn; intros ? H; try discriminate H; contradiction. Qed.

Lemma run_T : forall es s, Tinv s -> Tinv (run es s).
Proof. exact (run_inv Tinv step_T). Qed.

Lemma not_forgotten : forall es i,
  let s := run es init in
  st_get (s_store s) i <> None ->
  In i (qids_of (s_queued s)) \/ In i (all_ids (s_tasks s)).
Proof. intros es i s. exact (t_tracked s (run_T es init init_T) i). Qed.

(* restart: a fresh queue over a non-empty store (C04's "resumes retrying") *)
Definition start (st : store) (nx : id) : state := start_at st nx 0.
Definition load_events (st : store) : list event := map (fun e => EAnnounce (m_ts (snd e)) (fst e)) st.

(* while the start-up load runs, no greenlet of the queue has started yet *)
Record loading (st : store) (nx : id) (s : state) : Prop := mkLoading {
  ld_store : s_store s = st; ld_tasks : s_tasks s = []; ld_active : s_active s = [];
  ld_removed : g_removed s = []; ld_next : s_next s = nx;
  ld_qids : forall j, mem j (s_qids s) = true -> In j (qids_of (s_queued s)) }.

Lemma load_all_queued : forall st nx es s, loading st nx s ->
  let s' := run (load_events es) s in
  loading st nx s' /\
  (forall i, In i (map fst es) \/ In i (qids_of (s_queued s)) -> In i (qids_of (s_queued s'))).
Proof.
  intros st nx es. induction es as [|[j m] es IH]; intros s L; cbn [load_events map run fold_left fst snd step].
  - split; [exact L|]. intros i [[]|H]. exact H.
  - destruct L as [L1 L2 L3 L4 L5 L6].
    destruct (IH (add_queued s (m_ts m) j)) as [L' Hall].
    { constructor; rewrite ?aq_store, ?aq_tasks, ?aq_active, ?aq_removed, ?aq_next; auto. apply aq_qids_ok. exact L6. }
    split; [exact L'|]. intros i [[<-|Hi]|Hi]; apply Hall; [right|left; exact Hi|right; apply aq_queued_In; exact Hi].
    apply aq_tracks; [exact L6|rewrite L3; reflexivity].
Qed.

Lemma st_get_In : forall (st : store) i, st_get st i <> None -> In i (map fst st).
Proof.
  induction st as [|[j m] st IH]; intros i H; cbn in *; [contradiction|].
  destruct (N.eqb_spec i j); [left; symmetry; assumption|right; apply IH; exact H].
Qed.

Lemma restart_resumes_at : forall st nx c, (forall i, st_get st i <> None -> i < nx) ->
  let s := run (load_events st) (start_at st nx c) in
  Tinv s /\ s_store s = st /\ forall i, st_get st i <> None -> In i (qids_of (s_queued s)).
Proof.
  intros st nx c Hlt s.
  destruct (load_all_queued st nx st (start_at st nx c)) as [[L1 L2 L3 L4 L5 L6] Hall]; [constructor; cbn; auto; discriminate|].
  fold s in L1, L2, L3, L4, L5, L6, Hall.
  assert (Hq : forall i, st_get st i <> None -> In i (qids_of (s_queued s))) by (intros i Hi; apply Hall; left; apply st_get_In, Hi).
  split; [|split; [exact L1|exact Hq]].
  constructor; unfold stored; rewrite ?L1, ?L2, ?L3, ?L4, ?L5; auto; [intros i []|discriminate].
Qed.
