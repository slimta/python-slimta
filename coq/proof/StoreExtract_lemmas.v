(* The logging scheduler of extract/E_Disk.v computes the same state and
   threads as StoreCore.sched (it only adds the log). *)
From Coq Require Import List.
From SV Require Import model.Store extract.E_Disk proof.Prog_lemmas.
Import ListNotations.

Lemma sched_log_sched chunk sch : forall s ths,
  fst (sched_log chunk sch s ths) =
  sched dexec (disk_next nc_enc_env nc_dec_env nc_enc_meta nc_dec_meta chunk) sch s ths.
Proof.
  induction sch as [|i sch IH]; intros s ths; cbn [sched_log sched]; [reflexivity|].
  destruct (nth_error ths i) as [th|] eqn:E; [|apply IH].
  unfold astep. destruct (disk_next nc_enc_env nc_dec_env nc_enc_meta nc_dec_meta chunk th) as [[c k]|].
  - destruct (dexec s c) as [s' a]. specialize (IH s' (set_nth i (k a) ths)).
    destruct (sched_log chunk sch s' (set_nth i (k a) ths)) as [[s2 ths2] lg]. exact IH.
  - rewrite (set_nth_same i th ths E). apply IH.
Qed.
