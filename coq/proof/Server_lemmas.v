(* Proofs about model/Server.v (property C07).
   abs maps a session state between two commands to a state of the protocol-order automaton; coh is the
   invariant under which it is exact.  in_order is what a command tests on the server's own flags; under
   coh it agrees with the automaton's `allowed`.
   handle_command_cases walks the decision trees of all commands once: a line is either `refused` (canned
   error reply or death on its argument; no handler, no change of state) or `acted` upon in one of a few
   ways, the state after a handler's answer being given by the relation `answers`.  The per-step results
   (step_sim, error_step, step_shape, raised_exn, reset_after_command) are case analyses over these.
   A session is a first output (first_out: the banner's, or the 421 of a failed immediate handshake)
   followed by the loop (run_session_eq).  One induction over the loop behind any first output gives
   run_session_struct: the shape of every output, and run_ok (every output but the last lets the session
   go on; a 221/421 occurs only as the last reply of the last).  The simulation run_sim gives callbacks_in_order
   and run_session_live (a session that goes on is coherent and the automaton has followed it).  The
   examples at the end instantiate the hypotheses of the theorems of prop/C07.v. *)
From Coq Require Import List NArith Bool.
From SV Require Import lib.Bytes model.Server proof.Bytes_lemmas.
Import ListNotations.
Open Scope N_scope.

Definition abs (st : sstate) : ast :=
  {| a_started := true; a_greeted := s_bannered (sv st); a_helo := is_some (s_ehlo (sv st));
     a_env := e_env (ed st); a_data := false; a_queued := false; a_tls := s_encrypted (sv st);
     a_authed := s_authed (sv st); a_dead := false |}.

Definition coh (st : sstate) : Prop :=
  s_mail (sv st) = is_some (e_env (ed st)) /\ s_rcpt (sv st) = has_rcpt (e_env (ed st)) /\
  (x_starttls (ex st) = true -> s_encrypted (sv st) = false).

Definition handler (c : cmdk) : option cbk :=
  match c with
  | CEhlo => Some KEhlo | CHelo => Some KHelo | CAuth => Some KAuth | CMail => Some KMail
  | CRcpt => Some KRcpt | CData => Some KData | CRset => Some KRset
  | _ => None
  end.

(* what a command has tested on the server's own flags when it consults its handler (server.py: the
   bad_sequence tests of _command_*, for STARTTLS also that it is on offer; of DATA's two only the one
   on have_rcptto, which under coh implies the other) *)
Definition in_order (st : sstate) (l : line) : bool :=
  match classify l with
  | CEhlo | CHelo => s_bannered (sv st)
  | CStarttls => x_starttls (ex st) && is_some (s_ehlo (sv st))
  | CAuth => is_some (s_ehlo (sv st)) && negb (s_mail (sv st)) && negb (s_authed (sv st))
  | CMail => is_some (s_ehlo (sv st)) && negb (s_mail (sv st))
  | CRcpt => s_mail (sv st)
  | CData => s_rcpt (sv st)
  | _ => true
  end.

Lemma in_order_allowed st l k : coh st -> handler (classify l) = Some k -> in_order st l = allowed (abs st) k.
Proof.
  intros (M & Rc & _). unfold in_order.
  destruct (classify l); intros E; try discriminate E; injection E as <-; cbn; rewrite ?M, ?Rc, ?andb_true_r; reflexivity.
Qed.

Lemma tls_allowed st : coh st -> x_starttls (ex st) && is_some (s_ehlo (sv st)) = true -> allowed_tls (abs st) = true.
Proof.
  intros (_ & _ & T) H. apply andb_true_iff in H. destruct H as [X E].
  unfold allowed_tls. cbn. rewrite (T X), E. reflexivity.
Qed.

Lemma in_order_ok st l : coh st -> in_order st l = true -> out_of_order (abs st) l = false.
Proof.
  intros C H. unfold out_of_order. destruct (classify l) eqn:E; try reflexivity;
    try (rewrite <- (in_order_allowed _ _ _ C (f_equal handler E)), H; reflexivity).
  unfold in_order in H. rewrite E in H. rewrite (tls_allowed _ C H). reflexivity.
Qed.

Definition challenges (it : item) : list N := map (fun _ => 334) (it_au_resps it).

(* what has been written when a command consults its handler *)
Definition pre (it : item) (cl : cmdk) : list N := match cl with CAuth => challenges it | _ => [] end.

(* results without a handler call *)
Inductive plain (it : item) (cl : cmdk) : list N -> exc -> Prop :=
| PlNoop : cl = CNoop -> plain it cl [250] XNone
| PlQuit : cl = CQuit -> plain it cl [221] XStop
| PlAuth c : cl = CAuth -> c = 501 \/ c = 504 -> plain it cl (challenges it ++ [c]) XNone
| PlAuthExn : cl = CAuth -> plain it cl (challenges it) XExn
| PlTls : cl = CStarttls -> it_tls_ok it = false -> plain it cl [220; 421] XStop.

(* handler k, called with arg in a state that passed the command's tests, answers c: the new state *)
Inductive answers (st : sstate) : cbk -> bytes -> N -> sstate -> Prop :=
| UpEhlo arg c :
    answers st KEhlo arg c
      {| sv := if c =? 250 then set_ehlo (Some arg) (reset_tx (sv st)) else sv st; ex := ex st;
         ed := if c =? 250 then set_env None (set_e_ehlo (Some arg) (set_e_esmtp true (ed st)))
               else set_e_esmtp true (ed st) |}
| UpHelo arg c :
    answers st KHelo arg c
      {| sv := if c =? 250 then set_ehlo (Some arg) (reset_tx (sv st)) else sv st;
         ex := if c =? 250 then exts_none else ex st;
         ed := if c =? 250 then set_env None (set_e_ehlo (Some arg) (ed st)) else ed st |}
| UpAuth arg c :
    answers st KAuth arg c
      {| sv := if c =? 235 then set_authed true (sv st) else sv st; ex := ex st;
         ed := if c =? 235 then set_e_auth (Some arg) (ed st) else ed st |}
| UpMail arg c :
    answers st KMail arg c
      {| sv := set_mail (c =? 250) (sv st); ex := ex st;
         ed := if c =? 250 then set_env (Some (arg, [])) (ed st) else ed st |}
| UpRcpt arg s rc : e_env (ed st) = Some (s, rc) ->
    answers st KRcpt arg 250
      {| sv := set_rcpt true (sv st); ex := ex st; ed := set_env (Some (s, rc ++ [arg])) (ed st) |}
| UpRcptNo arg c : (c =? 250) = false -> answers st KRcpt arg c st
| UpData c : (c =? 354) = false -> answers st KData [] c st
| UpRset : answers st KRset [] 250 {| sv := reset_tx (sv st); ex := ex st; ed := set_env None (ed st) |}.

Inductive data_trace (st : sstate) (d : bytes) (code : option N) : list event -> Prop :=
| DtDirect : data_trace st d code [EvCall KData [] [] (Some 354); EvCall KHaveData d [] code]
| DtQueued s rc : e_env (ed st) = Some (s, rc) ->
    data_trace st d code [EvCall KData [] [] (Some 354); EvQueue s rc; EvCall KHaveData d [] code].

(* an exception of family f can leave this line's callbacks *)
Definition kills (it : item) (f : xfamily) : Prop := f = FKill -> has_kill it = true.

Lemma fam_kill v : fam_of v = FKill -> is_kill v = true.
Proof. destruct v as [| |[]]; try discriminate; reflexivity. Qed.

Lemma kills_verdict it v : v = it_v1 it \/ v = it_v2 it \/ v = it_v3 it -> kills it (fam_of v).
Proof.
  intros H F. apply fam_kill in F. unfold has_kill.
  destruct H as [->|[->| ->]]; rewrite F, ?orb_true_r; reflexivity.
Qed.

Lemma kills_exception it : kills it FException.
Proof. discriminate. Qed.

(* a line is refused with one of the canned error replies or dies on its argument (undecodable
   bytes, bare MAIL/RCPT): no handler, no change of state - whatever the line and the state *)
Inductive refused (st : sstate) : res -> Prop :=
| RfError c : 400 <= c -> c < 600 -> refused st (mk st [c] [] (close_exc c))
| RfDead x : x = XUnicode \/ x = XExn -> refused st (mk st [] [] x).

(* ... or it is well-formed and in order, and one of these happens.  AcRaised with FException
   is also RCPT's failed `assert`; AcAnswered covers DATA answered by anything but 354. *)
Inductive acted (st : sstate) (it : item) (cl : cmdk) : res -> Prop :=
| AcPlain rs x : plain it cl rs x -> acted st it cl (mk st rs [] x)
| AcTls : cl = CStarttls ->
    acted st it cl (mk {| sv := set_ehlo None (reset_tx (sv (encrypted_state st)));
                          ex := drop_starttls (ex (encrypted_state st));
                          ed := set_env None (ed (encrypted_state st)) |} [220] [EvTls] XNone)
| AcRaised k arg ps f : handler cl = Some k -> kills it f ->
    acted st it cl (mkx st (pre it cl) [EvCall k arg ps None] f)
| AcAnswered k arg ps c rs st' : handler cl = Some k -> answers st k arg c st' -> rs = pre it cl ++ [c] ->
    acted st it cl (mk st' rs [EvCall k arg ps (Some c)] (close_exc c))
| AcDataRaised st' es d f : cl = CData -> data_trace st d None es -> kills it f ->
    acted st it cl (mkx st' [354] es f)
| AcDataAnswered es d c : cl = CData -> data_trace st d (Some c) es ->
    acted st it cl (mk {| sv := reset_tx (sv st); ex := ex st; ed := set_env None (ed st) |} [354; c] es (close_exc c)).

(* DATA's three-way test on the code, with the two replies that end the command folded into one *)
Lemma data_code st c es g :
  (if is_close c then mk st [c] es XStop else if c =? 354 then g else mk st [c] es XNone) =
  if c =? 354 then g else mk st [c] es (close_exc c).
Proof.
  unfold close_exc. destruct (N.eqb_spec c 354) as [->|_]; [reflexivity|]. destruct (is_close c); reflexivity.
Qed.

(* case split on the left-most atom of the innermost scrutinee *)
Ltac atom x :=
  lazymatch x with
  | context [match ?y with _ => _ end] => atom y
  | negb ?y => atom y
  | ?y && _ => atom y
  | ?y || _ => atom y
  | _ => destruct x eqn:?
  end.

Definition cases (st : sstate) (it : item) (cl : cmdk) (bad ord : bool) (r : res) : Prop :=
  refused st r \/ (bad = false /\ ord = true /\ acted st it cl r).

(* Every arm of every command, once.  The walk goes down the spine of the result only (which the
   goal mentions once): the state updates inside a record stay folded, the verdict functions are
   never unfolded, and the two booleans reduce along with the result.  Each leaf is then literally
   a constructor. *)
Lemma handle_command_cases st it :
  cases st it (classify (it_line it)) (malformed (it_line it)) (in_order st (it_line it)) (handle_command st it).
Proof.
  unfold handle_command, malformed, in_order.
  destruct (classify (it_line it));
  unfold command_EHLO, command_HELO, command_STARTTLS, command_AUTH, command_MAIL, command_RCPT,
    command_DATA, get_message_data, session_HAVE_DATA, have_data_fam, command_RSET, command_NOOP, command_QUIT, command_custom,
    bad_path, bad_size, check_size, arg_bytes, nonempty.
  all: repeat (lazymatch goal with
               | |- cases _ _ _ _ _ (if is_close _ then _ else _) => rewrite data_code
               | |- cases _ _ _ _ _ (match ?x with _ => _ end) => atom x
               end; cbn [negb orb andb is_some]).
  all: repeat match goal with H : (_ =? _) = true |- _ => apply N.eqb_eq in H; subst end.
  all: unfold just; cbn [app].
  all: first [ left; first [apply RfError; [discriminate|reflexivity] | apply RfDead; auto]
             | right; split; [reflexivity|]; split; [reflexivity|]; econstructor;
               solve [eauto using plain, answers, data_trace, kills_verdict, kills_exception] ].
Qed.

Lemma finish_close st rs es c :
  finish (mk st rs es (close_exc c)) =
  (st, {| o_replies := rs; o_events := es; o_fin := if is_close c then Closed else Continue |}).
Proof. unfold close_exc. destruct (is_close c); reflexivity. Qed.

Lemma finish_mkx st rs es f :
  finish (mkx st rs es f) =
  (st, {| o_replies := match f with FKill => rs | _ => rs ++ [421] end; o_events := es;
          o_fin := match f with FTimeout => Closed | _ => Crashed end |}).
Proof. destruct f; reflexivity. Qed.

Lemma list_beq_refl l : list_beq l l = true.
Proof. induction l as [|x l IH]; cbn; [reflexivity|]. rewrite beqb_refl. exact IH. Qed.

Lemma answered_sim st k arg ps c st' :
  coh st -> allowed (abs st) k = true -> answers st k arg c st' -> is_close c = false ->
  aut_step (abs st) (EvCall k arg ps (Some c)) = Some (abs st') /\ coh st'.
Proof.
  intros (M & Rc & T) A U Hc. unfold coh.
  destruct U; cbn [aut_step]; rewrite A; cbn [negb]; unfold dead_after, code_is, abs; rewrite ?Hc.
  - (* UpEhlo *) destruct (c =? 250); cbn; repeat split; auto.
  - (* UpHelo *) destruct (c =? 250); cbn; repeat split; auto; discriminate.
  - (* UpAuth *) destruct (c =? 235); cbn; destruct (s_authed (sv st)); repeat split; auto.
  - (* UpMail *) destruct (e_env (ed st)) eqn:En; [cbn in A; rewrite En, andb_false_r in A; discriminate|].
    destruct (c =? 250); cbn; rewrite ?En; repeat split; auto.
  - (* UpRcpt *) rewrite H in M. cbn. rewrite H. cbn. repeat split; auto. destruct rc; reflexivity.
  - (* UpRcptNo *) rewrite H. cbn. repeat split; auto.
  - (* UpData *) rewrite H. cbn. repeat split; auto.
  - (* UpRset *) cbn. repeat split; auto.
Qed.

Lemma aut_step_call a k arg ps code : allowed a k = true ->
  exists a', aut_step a (EvCall k arg ps code) = Some a'.
Proof. cbn [aut_step]. intros ->. destruct k; cbn [negb]; try destruct (code_is code 250); eauto. Qed.

Lemma data_sim st d code es : allowed (abs st) KData = true -> data_trace st d code es ->
  aut_run (abs st) es =
  Some (a_upd (abs st) true (a_greeted (abs st)) (a_helo (abs st)) None false false (a_tls (abs st))
              (a_authed (abs st)) (dead_after code)).
Proof.
  intros A [|s rc En]; cbn [aut_run aut_step]; rewrite A; cbn; [reflexivity|].
  rewrite En, beqb_refl, list_beq_refl. reflexivity.
Qed.

Definition sim (a : ast) (r : sstate * out) : Prop :=
  exists a', aut_run a (o_events (snd r)) = Some a' /\
             (o_fin (snd r) = Continue -> a' = abs (fst r) /\ coh (fst r)).

(* no event, and the state is the old one *)
Lemma idle_sim st rs x : coh st -> sim (abs st) (finish (mk st rs [] x)).
Proof.
  intros C. exists (abs st). destruct x; (split; [reflexivity|]); try discriminate. intros _. split; [reflexivity|exact C].
Qed.

Lemma step_sim st it : coh st -> sim (abs st) (step st it).
Proof.
  intros C. unfold step.
  destruct (handle_command_cases st it) as [[c _ _|x _]|(_ & G & A)]; try apply idle_sim, C.
  destruct A as [rs x P | Hc | k arg ps f K F | k arg ps c rs st' K U -> | st' es d f Hc T F | es d c Hc T];
    [apply idle_sim, C|..]; unfold sim; rewrite ?finish_close, ?finish_mkx; cbn [fst snd o_events o_fin aut_run].
  - (* AcTls *) unfold in_order in G. rewrite Hc in G.
    eexists. split; [cbn; rewrite (tls_allowed _ C G); reflexivity|]. intros _.
    split; [reflexivity|]. repeat split. discriminate.
  - (* AcRaised *) rewrite (in_order_allowed _ _ _ C K) in G.
    destruct (aut_step_call _ _ arg ps None G) as [a' ->]. exists a'. split; [reflexivity|destruct f; discriminate].
  - (* AcAnswered *) rewrite (in_order_allowed _ _ _ C K) in G. destruct (is_close c) eqn:Cl.
    + destruct (aut_step_call _ _ arg ps (Some c) G) as [a' ->]. exists a'. split; [reflexivity|discriminate].
    + destruct (answered_sim st k arg ps c st' C G U Cl) as [-> C']. eexists. split; [reflexivity|]. intros _. split; [reflexivity|exact C'].
  - (* AcDataRaised *) rewrite (in_order_allowed _ _ _ C (f_equal handler Hc)) in G.
    eexists. split; [exact (data_sim st d None es G T)|destruct f; discriminate].
  - (* AcDataAnswered *) rewrite (in_order_allowed _ _ _ C (f_equal handler Hc)) in G.
    eexists. split; [exact (data_sim st d (Some c) es G T)|]. cbn [dead_after].
    destruct (is_close c); [discriminate|]. intros _. unfold abs, coh. cbn. repeat split. apply C.
Qed.

Lemma error_step st it : coh st ->
  malformed (it_line it) = true \/ out_of_order (abs st) (it_line it) = true ->
  o_events (snd (step st it)) = [] /\ exists c, o_replies (snd (step st it)) = [c] /\ 400 <= c /\ c < 600.
Proof.
  intros C B. unfold step.
  destruct (handle_command_cases st it) as [[c L U|x [->| ->]]|(M & G & _)].
  - rewrite finish_close. split; [reflexivity|]. exists c. auto.
  - split; [reflexivity|]. exists 501. repeat split. discriminate.
  - split; [reflexivity|]. exists 421. repeat split. discriminate.
  - exfalso. rewrite M, (in_order_ok _ _ C G) in B. destruct B; discriminate.
Qed.

Definition inter_ok (it : item) (o : out) (inter : list N) (c : N) : Prop :=
  match classify (it_line it) with
  | CData => inter = [] \/ inter = [354]
  | CAuth => inter = [] \/ inter = map (fun _ => 334) (it_au_resps it)
  | CStarttls => inter = [] \/ (inter = [220] /\ c = 421 /\ it_tls_ok it = false /\ o_fin o = Closed)
  | _ => inter = []
  end.

Definition replied_shape (it : item) (o : out) : Prop :=
  exists inter c, o_replies o = inter ++ [c] /\ inter_ok it o inter c /\
                  (is_close c = true -> o_fin o <> Continue) /\
                  (o_fin o = Closed -> is_close c = true).

(* the documented exception: a callback of this line was killed (GreenletExit family): the
   line gets no final reply (only the intermediates already written) and the session is over *)
Definition killed_shape (it : item) (o : out) : Prop :=
  has_kill it = true /\ raised o = true /\ o_fin o = Crashed /\
  (o_replies o = [] \/
   (classify (it_line it) = CData /\ o_replies o = [354]) \/
   (classify (it_line it) = CAuth /\ o_replies o = map (fun _ => 334) (it_au_resps it))).

Definition shape (it : item) (o : out) : Prop := replied_shape it o \/ killed_shape it o.

(* what has been written when the final reply is due *)
Inductive before (it : item) : list N -> Prop :=
| BfNone : before it []
| BfAuth : classify (it_line it) = CAuth -> before it (challenges it)
| BfData : classify (it_line it) = CData -> before it [354].

Lemma before_pre it : before it (pre it (classify (it_line it))).
Proof. unfold pre. destruct (classify (it_line it)) eqn:E; constructor. exact E. Qed.

Lemma before_inter_ok it o inter c : before it inter -> inter_ok it o inter c.
Proof. unfold inter_ok. intros [|E|E]; [destruct (classify (it_line it)); auto|rewrite E; auto..]. Qed.

Lemma answered_shape it st es inter c : before it inter ->
  shape it (snd (finish (mk st (inter ++ [c]) es (close_exc c)))).
Proof.
  intros B. rewrite finish_close. left. exists inter, c. split; [reflexivity|]. split; [apply before_inter_ok, B|].
  cbn [snd o_fin]. destruct (is_close c); split; intros; try discriminate; reflexivity.
Qed.

Lemma raised_shape it st inter es f :
  before it inter -> kills it f -> (f = FKill -> existsb ev_raised es = true) ->
  shape it (snd (finish (mkx st inter es f))).
Proof.
  intros B F R. rewrite finish_mkx.
  destruct f; [left; exists inter, 421; repeat split; try discriminate; apply before_inter_ok, B..|].
  right. repeat split; [exact (F eq_refl)|exact (R eq_refl)|].
  destruct B; auto.
Qed.

Lemma step_shape st it : shape it (snd (step st it)).
Proof.
  unfold step. destruct (handle_command_cases st it) as [[c _ _|x [->| ->]]|(_ & _ & A)].
  - apply (answered_shape it st [] [] c), BfNone.
  - left. exists [], 501. repeat split; try discriminate. apply before_inter_ok, BfNone.
  - apply (raised_shape it st [] [] FException); [apply BfNone|discriminate..].
  - destruct A as [rs x P | Hc | k arg ps f K F | k arg ps c rs st' K U -> | st' es d f Hc T F | es d c Hc T].
    + (* AcPlain *) destruct P as [E|E|c E [->| ->]|E|E T].
      * (* PlNoop *) apply (answered_shape it st [] [] 250), BfNone.
      * (* PlQuit *) apply (answered_shape it st [] [] 221), BfNone.
      * (* PlAuth 501 *) apply (answered_shape it st [] (challenges it) 501), BfAuth, E.
      * (* PlAuth 504 *) apply (answered_shape it st [] (challenges it) 504), BfAuth, E.
      * (* PlAuthExn *) apply (raised_shape it st _ [] FException); [apply BfAuth, E|discriminate..].
      * (* PlTls *) left. exists [220], 421. split; [reflexivity|]. unfold inter_ok. rewrite E. repeat split; auto; discriminate.
    + (* AcTls *) apply (answered_shape it _ _ [] 220), BfNone.
    + (* AcRaised *) apply raised_shape; [apply before_pre|exact F|reflexivity].
    + (* AcAnswered *) apply answered_shape, before_pre.
    + (* AcDataRaised *) apply raised_shape; [apply BfData, Hc|exact F|destruct T; reflexivity].
    + (* AcDataAnswered *) apply (answered_shape it _ _ [354] c), BfData, Hc.
Qed.

Lemma exn_ends it st rs es f : kills it f ->
  let o := snd (finish (mkx st rs es f)) in
  o_fin o <> Continue /\ ((exists inter, o_replies o = inter ++ [421]) \/ (has_kill it = true /\ o_fin o = Crashed)).
Proof.
  intros F. rewrite finish_mkx. destruct f; (split; [discriminate|]); [left; exists rs; reflexivity..|].
  right. split; [exact (F eq_refl)|reflexivity].
Qed.

Lemma raised_exn st it : raised (snd (step st it)) = true ->
  exists st' rs es f, handle_command st it = mkx st' rs es f /\ kills it f.
Proof.
  unfold step, raised.
  destruct (handle_command_cases st it) as [[c _ _|x [->| ->]]|(_ & _ & A)]; rewrite ?finish_close; try discriminate.
  destruct A as [rs x P | Hc | k arg ps f K F | k arg ps c rs st' K U -> | st' es d f Hc T F | es d c Hc T];
    rewrite ?finish_close.
  - (* AcPlain *) destruct x; discriminate.
  - (* AcTls *) discriminate.
  - (* AcRaised *) eauto 6.
  - (* AcAnswered *) discriminate.
  - (* AcDataRaised *) eauto 6.
  - (* AcDataAnswered *) destruct T; discriminate.
Qed.

Theorem reset_after_command : forall st it,
  raised (snd (step st it)) = false ->
  (resets (it_line it) = true /\ o_replies (snd (step st it)) = [250]) \/
  (classify (it_line it) = CData /\ In 354 (o_replies (snd (step st it)))) ->
  s_mail (sv (fst (step st it))) = false /\ s_rcpt (sv (fst (step st it))) = false /\
  e_env (ed (fst (step st it))) = None.
Proof.
  intros st it. unfold step, raised, resets.
  destruct (handle_command_cases st it) as [[c L _|x D]|(_ & _ & A)].
  - rewrite finish_close. intros _ [[_ H]|[_ [H|[]]]]; [injection H as ->|subst c]; contradiction (L eq_refl).
  - destruct D as [->| ->]; intros _ [[_ H]|[_ [H|[]]]]; discriminate H.
  - destruct A as [rs x P | Hc | k arg ps f K F | k arg ps c rs st' K U -> | st' es d f Hc T F | es d c Hc T].
    + (* AcPlain *) intros _ [[H _]|[H _]]; destruct P as [E|E|c E _|E|E _]; rewrite E in H; discriminate H.
    + (* AcTls *) rewrite Hc. intros _ [[H _]|[H _]]; discriminate H.
    + (* AcRaised *) rewrite finish_mkx. discriminate.
    + (* AcAnswered *) rewrite finish_close. cbn [fst snd o_replies]. intros _ H.
      destruct (classify (it_line it)); try discriminate K; injection K as <-; cbn [pre app] in H;
        destruct H as [[R H]|[R H]]; try discriminate R.
      * (* EHLO *) injection H as ->. inversion U. repeat split.
      * (* HELO *) injection H as ->. inversion U. repeat split.
      * (* DATA, not 354 *) destruct H as [->|[]]. inversion U. discriminate.
      * (* RSET *) inversion U. repeat split.
    + (* AcDataRaised *) rewrite finish_mkx. destruct T; discriminate.
    + (* AcDataAnswered *) rewrite finish_close. intros _ _. repeat split.
Qed.

Definition after (r : sstate * out) (k : sstate -> list out * sstate * fin) : list out * sstate * fin :=
  let '(st', o) := r in
  match o_fin o with
  | Continue => let '(os, stf, f) := k st' in (o :: os, stf, f)
  | f => ([o], st', f)
  end.

Lemma after_inv r k os stf f : after r k = (os, stf, f) ->
  (o_fin (snd r) = Continue /\ exists os', k (fst r) = (os', stf, f) /\ os = snd r :: os') \/
  (o_fin (snd r) <> Continue /\ os = [snd r] /\ stf = fst r /\ f = o_fin (snd r)).
Proof.
  destruct r as [st' o]. cbn [after fst snd].
  destruct (o_fin o) eqn:E; [destruct (k st') as [[os' stf'] f']|..]; intros H; injection H as <- <- <-;
    [left; eauto|right; repeat split; discriminate..].
Qed.

Definition first_out (cfg : config) (vb : verdict) : sstate * out :=
  let tls := cfg_context cfg && cfg_tls_immediately cfg in
  if tls && negb (cfg_tls_imm_ok cfg)
  then (init_state cfg, {| o_replies := [421]; o_events := []; o_fin := Closed |})
  else
    let '(st2, o) := finish (command_BANNER vb (if tls then encrypted_state (init_state cfg) else init_state cfg)) in
    (st2, {| o_replies := o_replies o; o_events := (if tls then [EvTls] else []) ++ o_events o; o_fin := o_fin o |}).

Lemma run_session_eq cfg vb items :
  run_session cfg vb items = after (first_out cfg vb) (fun st => run_loop st items).
Proof.
  unfold run_session, first_out.
  destruct (cfg_context cfg && cfg_tls_immediately cfg && negb (cfg_tls_imm_ok cfg)); [reflexivity|].
  destruct (finish _) as [st2 o]. reflexivity.
Qed.

Lemma aut_run_app : forall l1 l2 a,
  aut_run a (l1 ++ l2) = match aut_run a l1 with Some a' => aut_run a' l2 | None => None end.
Proof.
  induction l1 as [|e l1 IH]; intros l2 a; cbn [aut_run app]; [reflexivity|].
  destruct (aut_step a e); [apply IH|reflexivity].
Qed.

Definition run_sim (a : ast) (r : list out * sstate * fin) : Prop :=
  let '(os, stf, f) := r in
  exists a', aut_run a (trace os) = Some a' /\ (f = Continue -> a' = abs stf /\ coh stf).

Lemma after_sim a r k : sim a r -> (forall st, coh st -> run_sim (abs st) (k st)) -> run_sim a (after r k).
Proof.
  destruct r as [st' o]. intros (a1 & S & H) K. cbn [after fst snd] in *.
  destruct (o_fin o).
  - destruct (H eq_refl) as [-> C]. specialize (K st' C). destruct (k st') as [[os stf] f].
    destruct K as (a' & S' & H'). exists a'. split; [|exact H'].
    change (trace (o :: os)) with (o_events o ++ trace os). rewrite aut_run_app, S. exact S'.
  - exists a1. split; [cbn; rewrite app_nil_r; exact S|discriminate].
  - exists a1. split; [cbn; rewrite app_nil_r; exact S|discriminate].
Qed.

Lemma run_loop_sim items : forall st, coh st -> run_sim (abs st) (run_loop st items).
Proof.
  induction items as [|it items IH]; intros st C.
  - exists (abs st). split; [reflexivity|]. intros _. split; [reflexivity|exact C].
  - apply (after_sim _ (step st it) (fun st' => run_loop st' items)); [apply step_sim, C|exact IH].
Qed.

Lemma first_sim cfg vb : sim a_init (first_out cfg vb).
Proof.
  unfold first_out, command_BANNER. destruct (_ && negb _).
  { exists a_init. split; [reflexivity|discriminate]. }
  destruct (apply_verdict vb 220) as [c|]; [rewrite finish_close|rewrite finish_mkx].
  - unfold sim. destruct cfg as [[] [] ok au m]; cbn.
    all: destruct (is_close c); (eexists; split; [reflexivity|]); try discriminate.
    all: intros _; unfold abs, coh; destruct (c =? 220); cbn; repeat split; discriminate.
  - destruct cfg as [[] [] ok au m]; (eexists; split; [reflexivity|destruct (fam_of vb); discriminate]).
Qed.

Lemma run_session_sim cfg vb items : run_sim a_init (run_session cfg vb items).
Proof.
  rewrite run_session_eq. apply after_sim; [apply first_sim|]. intros st C. apply run_loop_sim, C.
Qed.

Definition all_events (cfg : config) (vb : verdict) (items : list item) : list event :=
  trace (fst (fst (run_session cfg vb items))).

Theorem callbacks_in_order : forall cfg vb items,
  accepts (all_events cfg vb items) = true.
Proof.
  intros cfg vb items. unfold accepts, all_events. pose proof (run_session_sim cfg vb items) as S.
  destruct (run_session cfg vb items) as [[os st] f]. destruct S as (a & S & _). cbn [fst]. rewrite S. reflexivity.
Qed.

Lemma run_session_live cfg vb items outs st :
  run_session cfg vb items = (outs, st, Continue) ->
  aut_run a_init (trace outs) = Some (abs st) /\ coh st.
Proof.
  intros E. pose proof (run_session_sim cfg vb items) as S. rewrite E in S.
  destruct S as (a & S & H). destruct (H eq_refl) as [-> C]. split; assumption.
Qed.

Definition out_ok (o : out) : Prop :=
  (forall c, In c (o_replies o) -> is_close c = true ->
             o_fin o <> Continue /\ exists before, o_replies o = before ++ [c]) /\
  (o_fin o = Closed -> exists before c, o_replies o = before ++ [c] /\ is_close c = true).

Lemma inter_not_close it o inter c x : inter_ok it o inter c -> In x inter -> is_close x = false.
Proof.
  unfold inter_ok. intros I Hx.
  assert (E : inter = [] \/ inter = [354] \/ inter = challenges it \/ inter = [220]).
  { destruct (classify (it_line it)); tauto. }
  destruct E as [-> | [-> | [-> | ->]]]; [destruct Hx|destruct Hx as [<-|[]]; reflexivity| |destruct Hx as [<-|[]]; reflexivity].
  apply in_map_iff in Hx. destruct Hx as (_ & <- & _). reflexivity.
Qed.

Lemma shape_out_ok it o : shape it o -> out_ok o.
Proof.
  intros [(inter & c & E & I & H1 & H2)|(_ & _ & Fi & Rp)]; split.
  - intros x Hin Hx. rewrite E in Hin. apply in_app_iff in Hin. destruct Hin as [Hin|[->|[]]].
    + rewrite (inter_not_close _ _ _ _ _ I Hin) in Hx. discriminate.
    + split; [exact (H1 Hx)|exists inter; exact E].
  - intros Hf. exists inter, c. split; [exact E|exact (H2 Hf)].
  - intros x Hin Hx. exfalso. destruct Rp as [Rp|[[_ Rp]|[_ Rp]]]; rewrite Rp in Hin.
    + destruct Hin.
    + destruct Hin as [<-|[]]. discriminate.
    + apply in_map_iff in Hin. destruct Hin as (_ & <- & _). discriminate.
  - rewrite Fi. discriminate.
Qed.

Definition run_ok (outs : list out) (f : fin) : Prop :=
  forall pre o post, outs = pre ++ o :: post ->
    out_ok o /\ o_fin o = match post with [] => f | _ => Continue end.

Lemma run_ok_cons o o' os f : out_ok o -> o_fin o = Continue -> run_ok (o' :: os) f -> run_ok (o :: o' :: os) f.
Proof.
  intros Ho Fo R [|p pre] o1 post E; injection E as <- E; [subst post; split; assumption|exact (R pre o1 post E)].
Qed.

Lemma run_ok_single o : out_ok o -> run_ok [o] (o_fin o).
Proof. intros Ho [|p [|q pre]] o' post E; try discriminate E. injection E as <- <-. split; [exact Ho|reflexivity]. Qed.

Lemma after_loop_struct items : forall r outs stf f,
  after r (fun st => run_loop st items) = (outs, stf, f) -> out_ok (snd r) ->
  (exists os, outs = snd r :: os /\ Forall2 shape (firstn (length os) items) os /\
              (length os <= length items)%nat /\ (f = Continue -> length os = length items)) /\
  run_ok outs f.
Proof.
  induction items as [|it items IH]; intros r outs stf f E Ok; apply after_inv in E;
    destruct E as [(Fi & os & E & ->)|(Fi & -> & _ & ->)].
  2, 4: split; [exists []; repeat split; first [apply le_0_n|constructor|intros e; contradiction (Fi e)]|apply run_ok_single, Ok].
  - injection E as <- <- <-. split; [exists []; repeat split; constructor|]. rewrite <- Fi. apply run_ok_single, Ok.
  - apply (IH (step (fst r) it)) in E; [|exact (shape_out_ok _ _ (step_shape _ _))].
    destruct E as [(os' & -> & S & L & K) R]. split; [|apply run_ok_cons; assumption].
    eexists. split; [reflexivity|]. cbn [length firstn]. split; [constructor; [apply step_shape|exact S]|].
    split; [apply le_n_S, L|intros e; rewrite (K e); reflexivity].
Qed.

Definition banner_shape (vb : verdict) (o : out) : Prop :=
  (exists c, o_replies o = [c]) \/ (vb = VRaise FKill /\ o_replies o = [] /\ o_fin o = Crashed).

Lemma single_out_ok c es f : (is_close c = true -> f <> Continue) -> (f = Closed -> is_close c = true) ->
  out_ok {| o_replies := [c]; o_events := es; o_fin := f |}.
Proof.
  intros H1 H2. split.
  - intros x [<-|[]] Hx. split; [exact (H1 Hx)|exists []; reflexivity].
  - intros Hf. exists [], c. split; [reflexivity|exact (H2 Hf)].
Qed.

Lemma first_out_ok cfg vb : banner_shape vb (snd (first_out cfg vb)) /\ out_ok (snd (first_out cfg vb)).
Proof.
  unfold first_out, command_BANNER. destruct (_ && negb _).
  { split; [left; exists 421; reflexivity|apply single_out_ok; intros; [discriminate|reflexivity]]. }
  destruct (apply_verdict vb 220) as [c|] eqn:V; [rewrite finish_close|rewrite finish_mkx]; cbn [snd].
  - split; [left; exists c; reflexivity|]. cbn [o_replies o_fin].
    apply single_out_ok; destruct (is_close c); intros; try discriminate; reflexivity.
  - destruct vb as [|c|[]]; try discriminate V; cbn [fam_of o_replies o_fin app].
    1-3: split; [left; exists 421; reflexivity|apply single_out_ok; intros; try discriminate; reflexivity].
    split; [right; repeat split|]. split; [intros x []|discriminate].
Qed.

Lemma run_session_struct cfg vb items outs st f :
  run_session cfg vb items = (outs, st, f) ->
  (exists o0 os, outs = o0 :: os /\ banner_shape vb o0 /\
     Forall2 shape (firstn (length os) items) os /\
     (length os <= length items)%nat /\ (f = Continue -> length os = length items)) /\
  run_ok outs f.
Proof.
  rewrite run_session_eq. intros H. destruct (first_out_ok cfg vb) as [B O].
  apply after_loop_struct in H; [|exact O]. destruct H as [(os & -> & H) R]. split; [|exact R].
  exists (snd (first_out cfg vb)), os. split; [reflexivity|]. split; [exact B|exact H].
Qed.

Definition ex_cfg : config :=
  {| cfg_context := true; cfg_tls_immediately := false; cfg_tls_imm_ok := true; cfg_auth := true;
     cfg_max_size := Some 120 |}.

Definition ex_item (raw : bytes) (v1 : verdict) : item :=
  {| it_line := parse_line raw; it_v1 := v1; it_v2 := VKeep; it_v3 := VKeep;
     it_data := [104; 105; 13; 10]; it_wire := 7; it_q := QOk; it_au_resps := []; it_au := ARaise;
     it_tls_ok := true |}.

Definition L_EHLO : bytes := [69; 72; 76; 79; 32; 97].                                   (* "EHLO a" *)
Definition L_MAIL : bytes := [77; 65; 73; 76; 32; 70; 82; 79; 77; 58; 60; 115; 62].         (* "MAIL FROM:<s>" *)
Definition L_RCPT : bytes := [82; 67; 80; 84; 32; 84; 79; 58; 60; 114; 62].                 (* "RCPT TO:<r>" *)
Definition L_DATA : bytes := [68; 65; 84; 65].
Definition L_RSET : bytes := [82; 83; 69; 84].
Definition L_MAIL_BAD : bytes := [77; 65; 73; 76; 32; 115].                                (* "MAIL s" *)

(* RCPT right after EHLO is out of order; "MAIL s" is malformed *)
Example error_no_callback_hyps_sat :
  exists outs st a,
    run_session ex_cfg VKeep [ex_item L_EHLO VKeep] = (outs, st, Continue) /\
    aut_run a_init (trace outs) = Some a /\
    out_of_order a (it_line (ex_item L_RCPT VKeep)) = true /\
    malformed (it_line (ex_item L_MAIL_BAD VKeep)) = true /\
    malformed (it_line (ex_item L_RCPT VKeep)) = false.
Proof. do 3 eexists. split; [vm_compute; reflexivity|]. split; [vm_compute; reflexivity|]. vm_compute. auto. Qed.

(* a complete transaction whose content is rejected with 550: DATA's replies contain 354, not crashed;
   and an accepted RSET *)
Example reset_hyps_sat :
  exists outs st,
    run_session ex_cfg VKeep [ex_item L_EHLO VKeep; ex_item L_MAIL VKeep; ex_item L_RCPT VKeep] = (outs, st, Continue) /\
    let it := {| it_line := parse_line L_DATA; it_v1 := VKeep; it_v2 := VCode 550; it_v3 := VKeep;
                 it_data := [104; 105; 13; 10]; it_wire := 7; it_q := QOk; it_au_resps := [];
                 it_au := ARaise; it_tls_ok := true |} in
    classify (it_line it) = CData /\ o_replies (snd (step st it)) = [354; 550] /\
    raised (snd (step st it)) = false /\ e_env (ed st) = Some ([115], [[114]]) /\
    resets (it_line (ex_item L_RSET VKeep)) = true /\ o_replies (snd (step st (ex_item L_RSET VKeep))) = [250].
Proof. do 2 eexists. split; [vm_compute; reflexivity|]. vm_compute. repeat split; reflexivity. Qed.

(* a 421 set by the message-received callback closes the session (D12 fixed) *)
Example close_code_hyps_sat :
  exists outs st,
    run_session ex_cfg VKeep
      [ex_item L_EHLO VKeep; ex_item L_MAIL VKeep; ex_item L_RCPT VKeep;
       {| it_line := parse_line L_DATA; it_v1 := VKeep; it_v2 := VCode 421; it_v3 := VKeep;
          it_data := [104; 105; 13; 10]; it_wire := 7; it_q := QOk; it_au_resps := [];
          it_au := ARaise; it_tls_ok := true |};
       ex_item L_RSET VKeep] = (outs, st, Closed) /\
    map o_replies outs = [[220]; [250]; [250]; [250]; [354; 421]].
Proof. do 2 eexists. split; vm_compute; reflexivity. Qed.

(* a MAIL callback that runs into a gevent.Timeout: 421 and the session is closed; one that is
   killed: no reply *)
Example raising_callback_hyps_sat :
  exists outs st,
    run_session ex_cfg VKeep [ex_item L_EHLO VKeep] = (outs, st, Continue) /\
    raised (snd (step st (ex_item L_MAIL (VRaise FTimeout)))) = true /\
    snd (step st (ex_item L_MAIL (VRaise FTimeout))) =
      {| o_replies := [421]; o_events := [EvCall KMail [115] [] None]; o_fin := Closed |} /\
    snd (step st (ex_item L_MAIL (VRaise FException))) =
      {| o_replies := [421]; o_events := [EvCall KMail [115] [] None]; o_fin := Crashed |} /\
    snd (step st (ex_item L_MAIL (VRaise FKill))) =
      {| o_replies := []; o_events := [EvCall KMail [115] [] None]; o_fin := Crashed |}.
Proof. do 2 eexists. split; [vm_compute; reflexivity|]. vm_compute. repeat split; reflexivity. Qed.
