(* Proofs for property C05 (DATA framing): model/Data.v.  The sender is
   canonical dot stuffing followed by an end marker chosen from the last two
   bytes; the reader state after a stream is a function of the stream's lines
   (whatever the pieces), which makes DataReader.recv() the loop `feed read_spec`
   that asks the socket for pieces until the batch spec read_spec has a result;
   such a loop returns the spec of the whole stream and reads no piece too many
   (Section Feed; the readers of C09 are further instances); read_spec undoes
   the sender line by line. *)
From Coq Require Import List NArith Bool Arith Lia.
From SV Require Import lib.Bytes model.Data proof.List_lemmas.
From SV Require Export proof.Bytes_lemmas.
Import ListNotations.
Open Scope N_scope.
Local Arguments firstn : simpl never.
Local Arguments skipn : simpl never.

(* the statements of C05 and C09 speak of LF-free lines through this test; the
   split_lf lemmas of Bytes_lemmas are restated for it *)
Definition nolf (s : bytes) : bool := forallb (fun b => negb (b =? 10)) s.

Lemma nolf_iff s : nolf s = true <-> Bytes_lemmas.nolf s.
Proof. apply nolfb_iff. Qed.

Lemma nolf_cons b s : nolf (b :: s) = negb (b =? 10) && nolf s.
Proof. reflexivity. Qed.

Lemma nolf_app a b : nolf (a ++ b) = nolf a && nolf b.
Proof. unfold nolf. apply forallb_app. Qed.

Lemma split_lf_nolf s : nolf s = true -> split_lf s = ([], s).
Proof. intros H. apply Bytes_lemmas.split_lf_nolf, nolf_iff, H. Qed.

Lemma split_lf_line l r : nolf l = true ->
  split_lf (l ++ 10 :: r) = (l :: fst (split_lf r), snd (split_lf r)).
Proof. intros H. apply Bytes_lemmas.split_lf_line, nolf_iff, H. Qed.

Lemma split_lf_spec s :
  s = unraw (fst (split_lf s)) ++ snd (split_lf s)
  /\ forallb nolf (fst (split_lf s)) = true /\ nolf (snd (split_lf s)) = true.
Proof.
  destruct (split_lf_sound s _ _ (surjective_pairing _)) as (E & Hl & Ht).
  split; [symmetry; exact E|]. split; [apply nolfb_all_iff, Hl|apply nolf_iff, Ht].
Qed.

Lemma last2_cons3 a b c l : last2 (a :: b :: c :: l) = last2 (b :: c :: l).
Proof. reflexivity. Qed.

Lemma last2_skipn l : last2 l = skipn (length l - 2) l.
Proof.
  induction l as [|a [|b [|c l]] IH]; try reflexivity.
  rewrite last2_cons3, IH.
  replace (length (a :: b :: c :: l) - 2)%nat with (S (length (b :: c :: l) - 2)) by (cbn [length]; lia).
  reflexivity.
Qed.

Lemma last2_length l : length (last2 l) = Nat.min 2 (length l).
Proof. rewrite last2_skipn, skipn_length. lia. Qed.

Lemma last2_short l : (length l <= 2)%nat -> last2 l = l.
Proof. intros H. rewrite last2_skipn. replace (length l - 2)%nat with O by lia. reflexivity. Qed.

Lemma last2_app_long a b : (2 <= length b)%nat -> last2 (a ++ b) = last2 b.
Proof.
  intros H. rewrite !last2_skipn, app_length, skipn_app, skipn_all2 by lia.
  cbn [app]. f_equal. lia.
Qed.

Lemma last2_idem l : last2 (last2 l) = last2 l.
Proof. apply last2_short. rewrite last2_length. lia. Qed.

Lemma last2_app_last2 a b : last2 (last2 a ++ b) = last2 (a ++ b).
Proof.
  induction a as [|x [|y [|z a]] IH]; try reflexivity.
  rewrite last2_cons3, IH. reflexivity.
Qed.

Lemma last2_suffix l : exists p, l = p ++ last2 l.
Proof. exists (firstn (length l - 2) l). rewrite last2_skipn. symmetry. apply firstn_skipn. Qed.

Lemma last2_nil l : last2 l = [] -> l = [].
Proof.
  intros H. apply (f_equal (@length _)) in H. rewrite last2_length in H.
  destruct l; [reflexivity|cbn [length] in H; lia].
Qed.

Lemma beqb_refl a : beqb a a = true.
Proof. apply Bytes_lemmas.beqb_refl. Qed.

Lemma prefix_long (u v a t : bytes) :
  u ++ v = a ++ t -> (length a <= length u)%nat -> exists t', u = a ++ t'.
Proof.
  intros E L. destruct (app_eq_app _ _ _ _ E) as [l [[-> _]|[-> _]]]; [exists l; reflexivity|].
  rewrite app_length in L. destruct l; [exists []; rewrite !app_nil_r; reflexivity|cbn [length] in L; lia].
Qed.

(* canonical dot stuffing: a dot at the beginning of a line is doubled;
   `bol` says whether the string starts at a line boundary *)
Fixpoint stuff (bol : bool) (s : bytes) : bytes :=
  match s with
  | [] => []
  | a :: s' => (if bol && (a =? DOT) then [DOT] else []) ++ a :: stuff (a =? 10) s'
  end.

Fixpoint bol_after (b : bool) (x : bytes) : bool :=
  match x with [] => b | a :: x' => bol_after (a =? 10) x' end.

Lemma stuff_app b x y : stuff b (x ++ y) = stuff b x ++ stuff (bol_after b x) y.
Proof.
  revert b. induction x as [|a x IH]; intros b; [reflexivity|].
  cbn [app stuff bol_after]. rewrite IH, <- app_assoc. reflexivity.
Qed.

Lemma bol_after_app b x y : bol_after b (x ++ y) = bol_after (bol_after b x) y.
Proof. revert b. induction x as [|a x IH]; intros b; [reflexivity|]. cbn [app bol_after]. apply IH. Qed.

Lemma at_bol_flag x : at_bol x -> bol_after true x = true.
Proof.
  intros [E|[x' E]]; subst x; [reflexivity|]. rewrite bol_after_app. reflexivity.
Qed.

Definition starts_dot (s : bytes) : bool := match s with a :: _ => a =? DOT | [] => false end.

Lemma stuff_nodot b s : starts_dot s = false -> stuff b s = stuff false s.
Proof.
  destruct s as [|a s]; [reflexivity|]. cbn [starts_dot stuff]. intros H. rewrite H, andb_false_r. reflexivity.
Qed.

Lemma stuff_true s : stuff true s = (if starts_dot s then [DOT] else []) ++ stuff false s.
Proof. destruct s as [|a s]; [reflexivity|]. cbn [starts_dot stuff andb app]. destruct (a =? DOT); reflexivity. Qed.

Lemma stuff_false_nolf l : nolf l = true -> stuff false l = l.
Proof.
  induction l as [|a l IH]; intros H; [reflexivity|].
  rewrite nolf_cons in H. apply andb_true_iff in H. destruct H as [Ha Hl].
  cbn [stuff andb app]. destruct (a =? 10); [discriminate|]. rewrite (IH Hl). reflexivity.
Qed.

Lemma find_nldot_stuff s :
  match find_nldot s with
  | None => stuff false s = s
  | Some k => (k + 2 <= length s)%nat /\
              stuff false s = firstn (k + 2) s ++ [DOT] ++ stuff false (skipn (k + 2) s)
  end.
Proof.
  induction s as [|a s IH]; [reflexivity|].
  cbn [find_nldot]. destruct s as [|b s]; [reflexivity|].
  destruct ((a =? 10) && (b =? DOT)) eqn:Hab.
  - apply andb_true_iff in Hab. destruct Hab as [Ha Hb].
    apply N.eqb_eq in Ha, Hb. subst a b. split; [cbn [length]; lia|]. reflexivity.
  - assert (E : stuff false (a :: b :: s) = a :: stuff false (b :: s)).
    { cbn [stuff andb app]. f_equal. destruct (a =? 10); cbn [andb] in *; [rewrite Hab|]; reflexivity. }
    rewrite E. destruct (find_nldot (b :: s)) as [k|].
    + destruct IH as [L IH]. split; [cbn [length] in *; lia|].
      change (S k + 2)%nat with (S (k + 2)). rewrite firstn_cons, skipn_cons. cbn [app]. f_equal. exact IH.
    + f_equal. exact IH.
Qed.

Lemma process_loop_stuff fuel : forall s, (length s <= fuel)%nat -> concat (process_loop fuel s) = stuff false s.
Proof.
  induction fuel as [|f IH]; intros s L.
  - destruct s; [reflexivity|cbn in L; lia].
  - cbn [process_loop]. destruct s as [|a s]; [reflexivity|].
    pose proof (find_nldot_stuff (a :: s)) as F. destruct (find_nldot (a :: s)) as [k|].
    + destruct F as [Lk F]. cbn [concat]. rewrite IH, F; [reflexivity|].
      rewrite skipn_length. lia.
    + cbn [concat]. rewrite app_nil_r. symmetry. exact F.
Qed.

Lemma process_part_stuff p : concat (process_part p) = stuff true p.
Proof.
  unfold process_part. rewrite concat_app, process_loop_stuff by lia. rewrite stuff_true.
  destruct p as [|b p]; [reflexivity|]. cbn [starts_dot]. destruct (b =? DOT); reflexivity.
Qed.

Lemma dot_parts_at_bol_prefix ps p : dot_parts_at_bol (ps ++ [p]) -> dot_parts_at_bol ps.
Proof.
  intros H pre q post E. apply (H pre q (post ++ [p])). rewrite E, <- app_assoc. reflexivity.
Qed.

Lemma stuff_parts parts : dot_parts_at_bol parts ->
  concat (map (stuff true) parts) = stuff true (concat parts).
Proof.
  induction parts as [|p ps IH] using rev_ind; intros H; [reflexivity|].
  rewrite map_app, !concat_app, (IH (dot_parts_at_bol_prefix _ _ H)). cbn [map concat].
  rewrite !app_nil_r, stuff_app. f_equal.
  destruct (starts_dot p) eqn:D.
  - destruct p as [|a p]; [discriminate|]. cbn [starts_dot] in D. apply N.eqb_eq in D. subst a.
    rewrite (at_bol_flag _ (H ps p [] eq_refl)). reflexivity.
  - rewrite (stuff_nodot true _ D), (stuff_nodot (bol_after true (concat ps)) _ D). reflexivity.
Qed.

Lemma calc_last_two_loop_spec rparts : forall ret, (length ret < 2)%nat ->
  calc_last_two_loop rparts ret = last2 (concat (rev rparts) ++ ret).
Proof.
  induction rparts as [|p r IH]; intros ret L.
  - cbn [calc_last_two_loop rev concat app]. symmetry. apply last2_short. lia.
  - cbn [calc_last_two_loop rev]. rewrite concat_app. cbn [concat]. rewrite app_nil_r, <- app_assoc.
    destruct (2 <=? length (last2 p ++ ret))%nat eqn:C.
    + apply Nat.leb_le in C. rewrite last2_app_last2. symmetry. apply last2_app_long.
      rewrite app_length, last2_length in C. rewrite app_length. lia.
    + apply Nat.leb_gt in C. rewrite IH by exact C.
      rewrite app_length, last2_length in C. rewrite (last2_short p) by lia. reflexivity.
Qed.

Lemma calc_last_two_spec parts : calc_last_two parts = last2 (concat parts).
Proof.
  unfold calc_last_two. rewrite calc_last_two_loop_spec by (cbn; lia).
  rewrite rev_involutive, app_nil_r. reflexivity.
Qed.

Definition end_marker_of (m : bytes) : bytes :=
  match last2 m with
  | [] => [DOT; 13; 10]
  | _ => if beqb (last2 m) CRLF then [DOT; 13; 10] else [13; 10; DOT; 13; 10]
  end.

Lemma send_parts_stuffed parts :
  send parts = concat (map (stuff true) parts) ++ end_marker_of (concat parts).
Proof.
  unfold send, sender_pieces. rewrite concat_app, (concat_flat_map process_part).
  rewrite (map_ext _ (stuff true) process_part_stuff).
  cbn [concat]. rewrite app_nil_r. unfold calc_end_marker, end_marker_of.
  rewrite calc_last_two_spec. reflexivity.
Qed.

Lemma send_spec parts : dot_parts_at_bol parts ->
  send parts = stuff true (concat parts) ++ end_marker_of (concat parts).
Proof. intros H. rewrite send_parts_stuffed, (stuff_parts _ H). reflexivity. Qed.

(* between two effects of the reader len(self.lines) is i or i+1 *)
Definition shape (st : dr) : Prop := (idx st <= length (lines st) <= S (idx st))%nat.
Definition opened (st : dr) : Prop := length (lines st) = S (idx st).

Lemma add_at_length k x ls : length (add_at k x ls) = length ls.
Proof. revert k. induction ls as [|l ls IH]; intros k; [reflexivity|]. destruct k; cbn [add_at length]; [reflexivity|]. rewrite IH. reflexivity. Qed.

Lemma set_at_length k x ls : length (set_at k x ls) = length ls.
Proof. revert k. induction ls as [|l ls IH]; intros k; [reflexivity|]. destruct k; cbn [set_at length]; [reflexivity|]. rewrite IH. reflexivity. Qed.

Lemma add_at_twice k x y ls : add_at k y (add_at k x ls) = add_at k (x ++ y) ls.
Proof.
  revert k. induction ls as [|l ls IH]; intros k; [reflexivity|].
  destruct k; cbn [add_at]; [rewrite app_assoc; reflexivity|]. rewrite IH. reflexivity.
Qed.

Lemma add_at_snoc P x y : add_at (length P) y (P ++ [x]) = P ++ [x ++ y].
Proof. induction P as [|l P IH]; [reflexivity|]. cbn [length app add_at]. rewrite IH. reflexivity. Qed.

Lemma set_at_snoc P x y : set_at (length P) y (P ++ [x]) = P ++ [y].
Proof. induction P as [|l P IH]; [reflexivity|]. cbn [length app set_at]. rewrite IH. reflexivity. Qed.

Lemma append_line_opened x st : shape st -> opened (append_line x st).
Proof.
  unfold shape, opened, append_line. intros [H1 H2].
  destruct (length (lines st) <=? idx st)%nat eqn:C; cbn [lines idx].
  - apply Nat.leb_le in C. rewrite app_length. cbn [length]. lia.
  - apply Nat.leb_gt in C. rewrite add_at_length. lia.
Qed.

Lemma opened_shape st : opened st -> shape st.
Proof. unfold opened, shape. lia. Qed.

Lemma handle_shape st : opened st -> shape (handle_finished_line st).
Proof.
  unfold opened, shape, handle_finished_line. intros H.
  destruct (eod st); [cbn [lines idx]; lia|].
  destruct (is_eod _); [cbn [lines idx]; lia|].
  destruct (nth (idx st) (lines st) []) as [|b l]; [cbn [lines idx]; lia|].
  destruct (b =? DOT); cbn [lines idx]; rewrite ?set_at_length; lia.
Qed.

Lemma fold_finished_shape ls : forall st, shape st -> shape (fold_left finished_line ls st).
Proof. apply fold_left_inv. intros st l H. apply handle_shape, append_line_opened, H. Qed.

Lemma append_line_twice x y st : shape st ->
  append_line y (append_line x st) = append_line (x ++ y) st.
Proof.
  destruct st as [L i e]. unfold shape, append_line. cbn [lines idx eod]. intros [H1 H2].
  destruct (length L <=? i)%nat eqn:C; cbn [lines idx eod].
  - apply Nat.leb_le in C. assert (E : i = length L) by lia. subst i.
    rewrite app_length. cbn [length].
    replace (length L + 1 <=? length L)%nat with false by (symmetry; apply Nat.leb_gt; lia).
    rewrite add_at_snoc. reflexivity.
  - rewrite add_at_length, C, add_at_twice. reflexivity.
Qed.

Lemma add_lines_shape p st : shape st -> opened (add_lines p st).
Proof.
  intros H. unfold add_lines. destruct (split_lf p) as [ls tl].
  apply append_line_opened, fold_finished_shape, H.
Qed.

Lemma add_lines_app a b st : shape st -> add_lines (a ++ b) st = add_lines b (add_lines a st).
Proof.
  intros H. unfold add_lines. rewrite split_lf_merge. unfold merge_split.
  destruct (split_lf a) as [la ta]. destruct (split_lf b) as [lb tb]. cbn [fst snd].
  pose proof (fold_finished_shape la st H) as Hs.
  destruct lb as [|l1 lb].
  - cbn [fold_left]. rewrite append_line_twice by exact Hs. reflexivity.
  - rewrite fold_left_app. cbn [fold_left]. f_equal. f_equal.
    unfold finished_line. rewrite append_line_twice by exact Hs. rewrite <- app_assoc. reflexivity.
Qed.

(* closed form of the reader state: the lines stored (with the leading dot removed
   in front of the end-of-data line) and the index of that line *)
Definition addlf (l : bytes) : bytes := l ++ [10].

Fixpoint done_lines (ls : list bytes) : list bytes :=
  match ls with
  | [] => []
  | l :: ls' => if is_eod (l ++ [10]) then map addlf (l :: ls')
                else undot (l ++ [10]) :: done_lines ls'
  end.

Fixpoint find_eod (ls : list bytes) : option nat :=
  match ls with
  | [] => None
  | l :: ls' => if is_eod (l ++ [10]) then Some O
                else match find_eod ls' with Some k => Some (S k) | None => None end
  end.

Definition proc (e : option nat) (ls : list bytes) : list bytes :=
  match e with None => done_lines ls | Some _ => map addlf ls end.
Definition eod_after (e : option nat) (k : nat) (ls : list bytes) : option nat :=
  match e with
  | Some x => Some x
  | None => match find_eod ls with Some j => Some (k + j)%nat | None => None end
  end.

Lemma done_lines_length ls : length (done_lines ls) = length ls.
Proof.
  induction ls as [|l ls IH]; [reflexivity|]. cbn [done_lines].
  destruct (is_eod _); [apply map_length|]. cbn [length]. rewrite IH. reflexivity.
Qed.

Lemma finished_line_closed_form P e l :
  finished_line (mkdr P (length P) e) l =
  match e with
  | Some e0 => mkdr (P ++ [l ++ [10]]) (S (length P)) (Some e0)
  | None => if is_eod (l ++ [10]) then mkdr (P ++ [l ++ [10]]) (S (length P)) (Some (length P))
            else mkdr (P ++ [undot (l ++ [10])]) (S (length P)) None
  end.
Proof.
  unfold finished_line, append_line. cbn [lines idx eod]. rewrite Nat.leb_refl.
  unfold handle_finished_line. cbn [lines idx eod]. rewrite nth_middle.
  destruct e as [e0|]; [reflexivity|].
  destruct (is_eod (l ++ [10])); [reflexivity|].
  unfold undot. destruct (l ++ [10]) as [|b x]; [reflexivity|].
  destruct (b =? DOT); [rewrite set_at_snoc|]; reflexivity.
Qed.

Lemma fold_closed_form ls : forall P e,
  fold_left finished_line ls (mkdr P (length P) e) =
  mkdr (P ++ proc e ls) (length P + length ls) (eod_after e (length P) ls).
Proof.
  induction ls as [|l ls IH]; intros P e.
  - cbn [fold_left]. destruct e; cbn [proc done_lines map eod_after find_eod length];
      rewrite app_nil_r, Nat.add_0_r; reflexivity.
  - cbn [fold_left]. rewrite finished_line_closed_form.
    assert (LS : forall x : bytes, S (length P) = length (P ++ [x])) by (intros; rewrite app_length; cbn [length]; lia).
    destruct e as [e0|].
    + rewrite (LS (l ++ [10])), IH. cbn [proc map eod_after length]. rewrite <- app_assoc.
      f_equal. rewrite app_length. cbn [length]. lia.
    + cbn [proc done_lines eod_after find_eod]. destruct (is_eod (l ++ [10])).
      * rewrite (LS (l ++ [10])), IH. cbn [proc map eod_after length]. rewrite <- app_assoc.
        f_equal; [rewrite app_length; cbn [length]; lia | rewrite Nat.add_0_r; reflexivity].
      * rewrite (LS (undot (l ++ [10]))), IH. cbn [proc eod_after length]. rewrite <- app_assoc.
        rewrite app_length. cbn [length app].
        f_equal; [lia|]. destruct (find_eod ls); [f_equal; lia|reflexivity].
Qed.

Lemma add_lines_init s : add_lines s dr_init = add_lines s (mkdr [] O None).
Proof.
  unfold add_lines. destruct (split_lf s) as [ls tl]. destruct ls as [|l ls]; reflexivity.
Qed.

Definition batch (s : bytes) : dr := add_lines s dr_init.

Lemma batch_app s c : batch (s ++ c) = add_lines c (batch s).
Proof. apply add_lines_app. unfold shape. cbn. lia. Qed.

Lemma batch_closed_form s :
  batch s = mkdr (done_lines (fst (split_lf s)) ++ [snd (split_lf s)])
                 (length (fst (split_lf s))) (find_eod (fst (split_lf s))).
Proof.
  unfold batch. rewrite add_lines_init. unfold add_lines.
  destruct (split_lf s) as [ls tl]. cbn [fst snd].
  change (mkdr [] O None) with (mkdr [] (length (@nil bytes)) None).
  rewrite fold_closed_form. cbn [app length Nat.add proc eod_after].
  unfold append_line. cbn [lines idx eod]. rewrite done_lines_length, Nat.leb_refl.
  f_equal. destruct (find_eod ls); reflexivity.
Qed.

Lemma read_spec_unfold s :
  read_spec s = match scan (fst (split_lf s)) with
                | Some (d, r) => Some (d, unraw r ++ snd (split_lf s))
                | None => None
                end.
Proof. unfold read_spec. destruct (split_lf s). reflexivity. Qed.

Lemma read_spec_line l r : nolf l = true ->
  read_spec (l ++ 10 :: r) =
  if is_eod (l ++ [10]) then Some ([], r)
  else match read_spec r with
       | Some (d, r') => Some (undot (l ++ [10]) ++ d, r')
       | None => None
       end.
Proof.
  intros H. rewrite (read_spec_unfold (l ++ 10 :: r)), (read_spec_unfold r), (split_lf_line _ _ H).
  cbn [fst snd scan]. destruct (is_eod (l ++ [10])).
  - cbn [app]. f_equal. f_equal. symmetry. apply split_lf_spec.
  - destruct (scan (fst (split_lf r))) as [[d r']|]; reflexivity.
Qed.

Lemma scan_app ls more d r : scan ls = Some (d, r) -> scan (ls ++ more) = Some (d, r ++ more).
Proof.
  revert d r. induction ls as [|l ls IH]; intros d r H; [discriminate|].
  cbn [scan app] in *. destruct (is_eod (l ++ [10])).
  - injection H as <- <-. reflexivity.
  - destruct (scan ls) as [[d' r']|]; [|discriminate]. injection H as <- <-.
    rewrite (IH d' r' eq_refl). reflexivity.
Qed.

Lemma scan_done ls tl :
  match find_eod ls with
  | None => scan ls = None
  | Some e => exists d r, scan ls = Some (d, r)
               /\ concat (firstn e (done_lines ls ++ [tl])) = d
               /\ concat (skipn (S e) (done_lines ls ++ [tl])) = unraw r ++ tl
  end.
Proof.
  induction ls as [|l ls IH]; [reflexivity|].
  cbn [find_eod scan done_lines]. destruct (is_eod (l ++ [10])).
  - exists [], ls. split; [reflexivity|]. split; [reflexivity|].
    cbn [map app]. rewrite skipn_cons, skipn_O, concat_app. cbn [concat]. rewrite app_nil_r. reflexivity.
  - destruct (find_eod ls) as [e|].
    + destruct IH as (d & r & S & F & K). exists (undot (l ++ [10]) ++ d), r. rewrite S.
      split; [reflexivity|]. cbn [app]. rewrite firstn_cons, skipn_cons. cbn [concat]. rewrite F. split; [reflexivity|exact K].
    + rewrite IH. reflexivity.
Qed.

Lemma batch_read s : read_spec s = option_map (return_all (batch s)) (eod (batch s)).
Proof.
  rewrite batch_closed_form, read_spec_unfold. cbn [eod lines option_map].
  pose proof (scan_done (fst (split_lf s)) (snd (split_lf s))) as D.
  destruct (find_eod (fst (split_lf s))) as [e|]; [|rewrite D; reflexivity].
  destruct D as (d & r & S & F & K). rewrite S. unfold return_all. cbn [lines option_map]. rewrite F, K. reflexivity.
Qed.

Lemma scan_sound ls0 d r0 : scan ls0 = Some (d, r0) ->
  exists ls e, ls0 = ls ++ e :: r0
    /\ forallb (fun l => negb (is_eod (l ++ [10]))) ls = true
    /\ is_eod (e ++ [10]) = true
    /\ d = concat (map (fun l => undot (l ++ [10])) ls).
Proof.
  revert d r0. induction ls0 as [|l ls0 IH]; intros d r0 H; [discriminate|].
  cbn [scan] in H. destruct (is_eod (l ++ [10])) eqn:E.
  - injection H as <- <-. exists [], l. repeat split. exact E.
  - destruct (scan ls0) as [[d' r']|]; [|discriminate]. injection H as <- <-.
    destruct (IH d' r' eq_refl) as (ls & e & E1 & E2 & E3 & E4).
    exists (l :: ls), e. cbn [app forallb map concat]. rewrite E, E2. subst. repeat split. exact E3.
Qed.

Lemma read_spec_sound s d r : read_spec s = Some (d, r) ->
  exists ls e, s = unraw ls ++ (e ++ [10]) ++ r
    /\ forallb nolf ls = true /\ nolf e = true
    /\ forallb (fun l => negb (is_eod (l ++ [10]))) ls = true
    /\ is_eod (e ++ [10]) = true
    /\ d = concat (map (fun l => undot (l ++ [10])) ls).
Proof.
  rewrite read_spec_unfold. destruct (split_lf_spec s) as (Es & Hl & Ht).
  destruct (scan (fst (split_lf s))) as [[d' r']|] eqn:S; [|discriminate]. intros H. injection H as <- <-.
  destruct (scan_sound _ _ _ S) as (ls & e & E1 & E2 & E3 & E4).
  exists ls, e. rewrite E1 in Es, Hl. rewrite forallb_app in Hl. apply andb_true_iff in Hl.
  destruct Hl as [Hl1 Hl2]. cbn [forallb] in Hl2. apply andb_true_iff in Hl2.
  repeat split; try tauto.
  rewrite Es at 1. rewrite unraw_app, unraw_cons, <- !app_assoc. reflexivity.
Qed.

Lemma scan_no_eod ls : forallb (fun l => negb (is_eod (l ++ [10]))) ls = true -> scan ls = None.
Proof.
  induction ls as [|l ls IH]; [reflexivity|]. cbn [forallb scan]. intros H. apply andb_prop in H as [H1 H2].
  apply negb_true_iff in H1. rewrite H1, (IH H2). reflexivity.
Qed.

Lemma read_spec_lines ls : forall y, forallb nolf ls = true -> scan ls = None ->
  read_spec (unraw ls ++ y) =
  match read_spec y with
  | Some (d, r) => Some (concat (map (fun l => undot (l ++ [10])) ls) ++ d, r)
  | None => None
  end.
Proof.
  induction ls as [|l ls IH]; intros y Hl Hs; [cbn [unraw map concat app]; destruct (read_spec y) as [[d r]|]; reflexivity|].
  cbn [forallb] in Hl. apply andb_true_iff in Hl. destruct Hl as [Hl Hls].
  cbn [scan] in Hs. destruct (is_eod (l ++ [10])) eqn:E; [discriminate|].
  assert (Hs' : scan ls = None) by (destruct (scan ls) as [[d r]|]; [discriminate|reflexivity]).
  rewrite unraw_cons, <- app_assoc. cbn [app]. rewrite (read_spec_line _ _ Hl), E, (IH y Hls Hs').
  destruct (read_spec y) as [[d r]|]; [cbn [map concat]; rewrite <- app_assoc|]; reflexivity.
Qed.

Lemma read_spec_complete ls e rest :
  forallb nolf ls = true -> nolf e = true ->
  forallb (fun l => negb (is_eod (l ++ [10]))) ls = true -> is_eod (e ++ [10]) = true ->
  read_spec (unraw ls ++ (e ++ [10]) ++ rest) = Some (concat (map (fun l => undot (l ++ [10])) ls), rest).
Proof.
  intros Hl He Hn Hd. rewrite (read_spec_lines ls _ Hl (scan_no_eod ls Hn)), <- app_assoc. cbn [app].
  rewrite read_spec_line, Hd, app_nil_r by exact He. reflexivity.
Qed.

Lemma read_spec_app_some s x d r : read_spec s = Some (d, r) -> read_spec (s ++ x) = Some (d, r ++ x).
Proof.
  intros H. destruct (read_spec_sound _ _ _ H) as (ls & e & -> & Hl & He & Hn & Hd & ->).
  rewrite <- app_assoc, <- (app_assoc (e ++ [10])). apply read_spec_complete; assumption.
Qed.

Lemma read_spec_shorter y d r : read_spec y = Some (d, r) -> (length r < length y)%nat.
Proof.
  intros H. destruct (read_spec_sound _ _ _ H) as (ls & e & -> & _).
  rewrite !app_length. cbn [length]. lia.
Qed.

(* when s holds no complete message, the message of s ++ x ends behind s - it is at least as long as
   s, which is what the size test of the reader has counted so far (ServerStream_lemmas.too_big_stays).
   Otherwise s would extend the part of s ++ x that ends with the end-of-data line, and have it too. *)
Lemma read_spec_ends_behind s x d r : read_spec s = None -> read_spec (s ++ x) = Some (d, r) -> (length r <= length x)%nat.
Proof.
  intros Hn H. destruct (read_spec_sound _ _ _ H) as (ls & e & E & Hl & He & Hne & Hd & _).
  destruct (Nat.le_gt_cases (length r) (length x)) as [L|L]; [exact L|exfalso].
  rewrite app_assoc in E. pose proof (f_equal (@length _) E) as EL. rewrite !app_length in EL.
  destruct (prefix_long _ _ _ _ E) as [t' ->]; [rewrite !app_length; lia|].
  rewrite <- app_assoc, (read_spec_complete ls e t' Hl He Hne Hd) in Hn. discriminate.
Qed.

Definition nonempty (c : bytes) : Prop := c <> [].

(* A reader that takes one unit (a line, a message) off the front of the stream: `spec` says what
   the unit is on a byte string that holds a whole one, and what it takes does not depend on
   later bytes; `feed` is the loop around raw_recv: more pieces until `spec` has a result, an
   exhausted socket or an empty piece being end of file.  Result: the unit, the new
   recv_buffer, what the socket still holds. *)
Section Feed.
  Variable A : Type.
  Variable spec : bytes -> option (A * bytes).
  Hypothesis spec_app : forall s x a r, spec s = Some (a, r) -> spec (s ++ x) = Some (a, r ++ x).

  Fixpoint feed (acc : bytes) (sock : list bytes) : option (A * (bytes * list bytes)) :=
    match spec acc with
    | Some (a, r) => Some (a, (r, sock))
    | None => match sock with
              | (_ :: _) as p :: sock' => feed (acc ++ p) sock'
              | _ => None
              end
    end.

  Lemma feed_batch chunks : forall acc, Forall nonempty chunks ->
    match feed acc chunks with Some (a, (r, rest)) => Some (a, r ++ concat rest) | None => None end
    = spec (acc ++ concat chunks).
  Proof.
    induction chunks as [|c cs IH]; intros acc NE; cbn [feed concat].
    - rewrite app_nil_r. destruct (spec acc) as [[a r]|]; [rewrite app_nil_r|]; reflexivity.
    - destruct (spec acc) as [[a r]|] eqn:E; [symmetry; apply spec_app, E|].
      inversion NE as [|? ? NEc NEcs]; subst. destruct c; [contradiction NEc; reflexivity|].
      rewrite (IH _ NEcs), app_assoc. reflexivity.
  Qed.

  (* exact consumption: the last piece taken from the socket is the one that completes the unit *)
  Lemma feed_consumption chunks : forall acc a r rest, feed acc chunks = Some (a, (r, rest)) ->
    exists used, chunks = used ++ rest /\ spec (acc ++ concat used) = Some (a, r)
      /\ (used = [] \/ spec (acc ++ concat (removelast used)) = None).
  Proof.
    induction chunks as [|c cs IH]; intros acc a r rest; cbn [feed];
      destruct (spec acc) as [[a' r']|] eqn:E; try discriminate.
    1,2: intros H; injection H as <- <- <-; exists []; cbn [concat app]; rewrite app_nil_r; auto.
    destruct c as [|b c]; [discriminate|]. intros H.
    destruct (IH _ _ _ _ H) as (used & -> & E2 & E3). exists ((b :: c) :: used).
    split; [reflexivity|]. split; [cbn [concat]; rewrite app_assoc; exact E2|]. right.
    destruct used as [|u used]; [cbn [removelast concat]; rewrite app_nil_r; exact E|].
    destruct E3 as [E3|E3]; [discriminate|]. cbn [removelast concat] in *. rewrite app_assoc. exact E3.
  Qed.
End Feed.
Arguments feed {A}.

(* DataReader.recv() without a size limit is the reader of read_spec *)
Lemma recv_loop_feed sock : forall size s,
  recv_loop None size (batch s) sock =
  match feed read_spec s sock with Some (d, (rb, rest)) => ROk d rb rest | None => RLost end.
Proof.
  induction sock as [|c cs IH]; intros size s; cbn [recv_loop feed]; rewrite batch_read;
    (destruct (eod (batch s)) as [e|]; cbn [option_map]; [destruct (return_all (batch s) e); reflexivity|]);
    [reflexivity|].
  destruct c as [|b c]; [reflexivity|]. cbn [too_big]. rewrite <- batch_app. apply IH.
Qed.

Lemma recv_loop_batch chunks : forall s size, Forall nonempty chunks ->
  outcome (recv_loop None size (batch s) chunks) = read_spec (s ++ concat chunks).
Proof.
  intros s size NE. rewrite recv_loop_feed, <- (feed_batch _ _ read_spec_app_some chunks s NE).
  destruct (feed read_spec s chunks) as [[d [rb rest]]|]; reflexivity.
Qed.

Lemma recv_loop_consumption chunks : forall s size d rb rest,
  recv_loop None size (batch s) chunks = ROk d rb rest ->
  exists used, chunks = used ++ rest
    /\ read_spec (s ++ concat used) = Some (d, rb)
    /\ (used = [] \/ read_spec (s ++ concat (removelast used)) = None).
Proof.
  intros s size d rb rest. rewrite recv_loop_feed. intros H. apply (feed_consumption _ read_spec).
  destruct (feed read_spec s chunks) as [[d' [rb' rest']]|]; [injection H as -> -> ->; reflexivity|discriminate].
Qed.

Lemma stuff_true_nolf l : nolf l = true ->
  stuff true l = (if starts_dot l then [DOT] else []) ++ l.
Proof. intros H. rewrite stuff_true, (stuff_false_nolf _ H). reflexivity. Qed.

Lemma nolf_stuff_true l : nolf l = true -> nolf (stuff true l) = true.
Proof. intros H. rewrite (stuff_true_nolf _ H), nolf_app, H. destruct (starts_dot l); reflexivity. Qed.

(* a stuffed line, possibly continued by x (x = [] or [CR]), is never the
   end-of-data line and loses exactly the added dot *)
Lemma stuffed_line l x : nolf l = true -> starts_dot (x ++ [10]) = false ->
  is_eod (stuff true l ++ x ++ [10]) = false /\ undot (stuff true l ++ x ++ [10]) = l ++ x ++ [10].
Proof.
  intros H Hx. rewrite (stuff_true_nolf _ H). destruct l as [|a l].
  - cbn [starts_dot app]. destruct (x ++ [10]) as [|b y]; [split; reflexivity|].
    cbn [starts_dot] in Hx. cbn [is_eod undot]. rewrite Hx. split; reflexivity.
  - cbn [starts_dot]. destruct (a =? DOT) eqn:Ha.
    + apply N.eqb_eq in Ha. subst a. cbn [app is_eod undot]. rewrite N.eqb_refl. cbn [andb].
      split; [|reflexivity]. destruct (l ++ x ++ [10]) as [|c y] eqn:E.
      * destruct l; [destruct x|]; discriminate.
      * cbn [eod_tail]. reflexivity.
    + cbn [app is_eod undot]. rewrite Ha. split; reflexivity.
Qed.

Lemma read_spec_stuffed_lines ls : forall tl Y d r, forallb nolf ls = true ->
  read_spec (stuff true tl ++ Y) = Some (d, r) ->
  read_spec (stuff true (unraw ls ++ tl) ++ Y) = Some (unraw ls ++ d, r).
Proof.
  induction ls as [|l ls IH]; intros tl Y d r Hl H; [exact H|].
  cbn [forallb] in Hl. apply andb_true_iff in Hl. destruct Hl as [Hl Hls].
  rewrite unraw_cons, <- app_assoc, stuff_app. cbn [app].
  assert (E : stuff (bol_after true l) (10 :: unraw ls ++ tl) = 10 :: stuff true (unraw ls ++ tl)).
  { cbn [stuff]. rewrite andb_false_r. reflexivity. }
  rewrite E, <- app_assoc. cbn [app].
  rewrite read_spec_line by (apply nolf_stuff_true, Hl).
  destruct (stuffed_line l [] Hl eq_refl) as [E1 E2]. cbn [app] in E1, E2.
  rewrite E1, E2, (IH tl Y d r Hls H). f_equal. f_equal. rewrite <- !app_assoc. reflexivity.
Qed.

Lemma read_spec_dot_crlf t : read_spec ([DOT; 13; 10] ++ t) = Some ([], t).
Proof. change ([DOT; 13; 10] ++ t) with ([DOT; 13] ++ 10 :: t). rewrite read_spec_line; reflexivity. Qed.

(* read_spec_stuffed_lines with the message cut at its last LF: only what the reader makes of
   the unfinished last line and of what follows it is left to show *)
Lemma read_spec_stuffed m x Y r :
  read_spec (stuff true (snd (split_lf m)) ++ Y) = Some (snd (split_lf m) ++ x, r) ->
  read_spec (stuff true m ++ Y) = Some (m ++ x, r).
Proof.
  destruct (split_lf_spec m) as (Em & Hl & _). intros H.
  apply (read_spec_stuffed_lines _ _ _ _ _ Hl) in H. rewrite app_assoc, <- Em in H. exact H.
Qed.

(* DataSender._calc_end_marker and the message the server is to get: ".CRLF"
   after an empty message or a final CRLF, "CRLF.CRLF" otherwise *)
Lemma end_marker_cases m :
  (end_marker_of m = [DOT; 13; 10] /\ expected m = m /\ snd (split_lf m) = [])
  \/ (end_marker_of m = CRLF ++ [DOT; 13; 10] /\ expected m = m ++ CRLF).
Proof.
  unfold end_marker_of, expected, ends_crlf. destruct (last2 m) as [|x y] eqn:L2.
  - apply last2_nil in L2. subst m. left. repeat split.
  - destruct m as [|m0 m']; [discriminate L2|].
    destruct (beqb (x :: y) CRLF) eqn:C; [left|right; split; reflexivity].
    apply beqb_eq in C. destruct (last2_suffix (m0 :: m')) as [p Ep]. rewrite L2, C in Ep.
    repeat split. rewrite Ep. change CRLF with ([13] ++ [10]). rewrite app_assoc, split_lf_snoc_lf. reflexivity.
Qed.

Lemma read_spec_send m t :
  read_spec (stuff true m ++ end_marker_of m ++ t) = Some (expected m, t).
Proof.
  destruct (end_marker_cases m) as [(-> & -> & T)|(-> & ->)].
  - rewrite <- (app_nil_r m) at 2. apply read_spec_stuffed. rewrite T. apply read_spec_dot_crlf.
  - apply read_spec_stuffed. destruct (split_lf_spec m) as (_ & _ & Ht).
    (* the unfinished last line, closed by the marker's CRLF *)
    change ((CRLF ++ [DOT; 13; 10]) ++ t) with ([13] ++ 10 :: [DOT; 13; 10] ++ t).
    rewrite app_assoc, read_spec_line by (rewrite nolf_app, nolf_stuff_true by exact Ht; reflexivity).
    destruct (stuffed_line _ [13] Ht eq_refl) as [E1 E2].
    rewrite <- app_assoc, E1, E2, read_spec_dot_crlf, app_nil_r. reflexivity.
Qed.

Lemma read_spec_wire parts t : dot_parts_at_bol parts ->
  read_spec (send parts ++ t) = Some (expected (concat parts), t).
Proof. intros H. rewrite (send_spec _ H), <- app_assoc. apply read_spec_send. Qed.

Lemma dr_recv_batch buf chunks : Forall nonempty chunks ->
  outcome (dr_recv None buf chunks) = read_spec (buf ++ concat chunks).
Proof. intros H. unfold dr_recv. apply (recv_loop_batch chunks buf 0 H). Qed.

Lemma roundtrip parts t buf chunks :
  dot_parts_at_bol parts -> Forall nonempty chunks ->
  buf ++ concat chunks = send parts ++ t ->
  exists rb rest, dr_recv None buf chunks = ROk (expected (concat parts)) rb rest
                  /\ rb ++ concat rest = t.
Proof.
  intros Hp Hc E. pose proof (dr_recv_batch buf chunks Hc) as B.
  rewrite E, (read_spec_wire _ _ Hp) in B.
  destruct (dr_recv None buf chunks) as [d rb rest| |rest]; try discriminate.
  cbn [outcome] in B. injection B as -> <-. exists rb, rest. split; reflexivity.
Qed.

(* exact consumption of a stream that begins with a complete wire message w
   (whatever follows w, the batch spec cuts right behind it): the pieces taken
   from the socket end in w's last piece *)
Lemma consumption_of_message w m t buf chunks d rb rest :
  (forall t', read_spec (w ++ t') = Some (m, t')) ->
  buf ++ concat chunks = w ++ t ->
  dr_recv None buf chunks = ROk d rb rest ->
  exists used, chunks = used ++ rest
    /\ buf ++ concat used = w ++ rb
    /\ t = rb ++ concat rest
    /\ (used = [] \/ (length (buf ++ concat (removelast used)) < length w)%nat).
Proof.
  intros Hw E R. destruct (recv_loop_consumption chunks buf 0 d rb rest R) as (used & E1 & E2 & E3).
  unfold bytes in *.
  exists used. split; [exact E1|].
  pose proof (read_spec_app_some _ (concat rest) _ _ E2) as F.
  rewrite <- app_assoc, <- concat_app, <- E1, E, Hw in F.
  injection F as Fd Ft.
  assert (K : buf ++ concat used = w ++ rb).
  { apply (app_inv_tail (concat rest)). rewrite <- !app_assoc, <- concat_app, <- E1, <- Ft. exact E. }
  split; [exact K|]. split; [exact Ft|].
  destruct used as [|u0 used']; [left; reflexivity|right].
  destruct E3 as [E3|E3]; [discriminate|].
  destruct (Nat.lt_ge_cases (length (buf ++ concat (removelast (u0 :: used')))) (length w)) as [G|G]; [exact G|exfalso].
  pose proof (@app_removelast_last _ (u0 :: used') [] ltac:(discriminate)) as RL.
  rewrite RL, concat_app, app_assoc in K.
  destruct (prefix_long _ _ _ _ K G) as [t' Et'].
  rewrite Et', Hw in E3. discriminate.
Qed.

(* the property's "split at line boundaries" is a special case of the guard *)
Lemma at_bol_concat pre : (forall q, In q pre -> at_bol q) -> at_bol (concat pre).
Proof.
  induction pre as [|q pre IH] using rev_ind; intros H; [left; reflexivity|].
  rewrite concat_app. cbn [concat]. rewrite app_nil_r.
  destruct (H q) as [Eq|[q' Eq]]; [apply in_or_app; right; left; reflexivity| |].
  - subst q. rewrite app_nil_r. apply IH. intros q Hq. apply H, in_or_app. left. exact Hq.
  - right. exists (concat pre ++ q'). rewrite Eq, app_assoc. reflexivity.
Qed.

Lemma line_split_ok parts : line_split parts -> dot_parts_at_bol parts.
Proof.
  intros H pre p post E. apply at_bol_concat. intros q Hq.
  destruct (in_split _ _ Hq) as (l1 & l2 & El). subst pre parts.
  apply (H l1 q (l2 ++ (DOT :: p) :: post)); [rewrite <- app_assoc; reflexivity|].
  destruct l2; discriminate.
Qed.

Lemma single_part_ok m : dot_parts_at_bol [m].
Proof.
  intros pre p post E. destruct pre as [|a pre]; [left; reflexivity|].
  destruct pre; discriminate.
Qed.

(* the hypotheses of the theorems are satisfiable by non-trivial values *)
Example ex_parts : list bytes := [[DOT; 97; 13; 10]; []; [DOT; 10]; [98; DOT; 13]; [10; DOT]].
Example ex_parts_line_split_false_but_ok : dot_parts_at_bol ex_parts.
Proof.
  intros pre p post E. unfold ex_parts in E.
  destruct pre as [|a0 pre]; [left; reflexivity|].
  destruct pre as [|a1 pre]; [injection E as <- _; right; exists [DOT; 97; 13]; reflexivity|].
  destruct pre as [|a2 pre]; [injection E as <- <- _; right; exists [DOT; 97; 13]; reflexivity|].
  destruct pre as [|a3 pre]; [injection E as _ _ _ E; discriminate|].
  destruct pre as [|a4 pre]; [injection E as _ _ _ _ E; discriminate|].
  destruct pre; discriminate.
Qed.
Example ex_line_split : line_split [[DOT; 97; 13; 10]; []; [DOT; 10]; [DOT; DOT]].
Proof.
  intros pre p post E NE.
  destruct pre as [|a0 pre]; [injection E as <- _; right; exists [DOT; 97; 13]; reflexivity|].
  destruct pre as [|a1 pre]; [injection E as _ <- _; left; reflexivity|].
  destruct pre as [|a2 pre]; [injection E as _ _ <- _; right; exists [DOT]; reflexivity|].
  destruct pre as [|a3 pre]; [injection E as _ _ _ _ <-; exfalso; apply NE; reflexivity|].
  destruct pre; discriminate.
Qed.
Example ex_roundtrip_hyps :
  let t := [81; 13; 10] in
  let w := send ex_parts ++ t in
  Forall nonempty [firstn 3 (skipn 2 w); skipn 5 w] /\ firstn 2 w ++ concat [firstn 3 (skipn 2 w); skipn 5 w] = send ex_parts ++ t
  /\ dr_recv None (firstn 2 w) [firstn 3 (skipn 2 w); skipn 5 w]
     = ROk (expected (concat ex_parts)) t [].
Proof.
  cbv zeta. split; [repeat constructor; unfold nonempty; vm_compute; discriminate|].
  split; vm_compute; reflexivity.
Qed.
Example ex_consumption_hyp :
  dr_recv None [97; 10] [[DOT]; [10; 81]; [82]] = ROk [97; 10] [81] [[82]].
Proof. reflexivity. Qed.
Example ex_segmentation_hyps :
  let s := [DOT; DOT; 97; 10; DOT; 13; 10; 81] in
  Forall nonempty [firstn 5 s; skipn 5 s] /\ Forall nonempty (map (fun b => [b]) (skipn 1 s))
  /\ [] ++ concat [firstn 5 s; skipn 5 s] = firstn 1 s ++ concat (map (fun b => [b]) (skipn 1 s))
  /\ outcome (dr_recv None [] [firstn 5 s; skipn 5 s]) = Some ([DOT; 97; 10], [81]).
Proof.
  cbv zeta. split; [repeat constructor; discriminate|]. split; [repeat constructor; discriminate|].
  split; reflexivity.
Qed.
Example ex_read_spec_some : read_spec [97; 10; DOT; DOT; 10; DOT; 32; 13; 10; 81; 10] = Some ([97; 10; DOT; 10], [81; 10]).
Proof. reflexivity. Qed.
