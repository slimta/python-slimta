(* Proofs about model/Tls.v (property C08): the base64 codec; bytes tagged with the socket they
   were read from, on the client and on the server; what one line does to a server session
   (`ok_step`; for the commands left to model/Server.v it is read off the case analysis
   Server_lemmas.handle_command_cases), the invariant of reachable states and a session as a chain
   of steps; AUTH outcomes (`auth_out`), refusals and credentials; concrete sessions. *)
From Coq Require Import List PeanoNat NArith Bool Lia.
From SV Require Import lib.Bytes model.Reply model.Server model.Tls proof.List_lemmas proof.Arith_lemmas
  proof.Server_lemmas.
Import ListNotations.
Open Scope N_scope.

Definition byte_ok (b : N) : Prop := b < 256.
Definition line_safe (c : N) : Prop := c <> 10 /\ c <> 13 /\ c <> 32.

(* + / 0-9 A-Z a-z *)
Definition b64_alpha (c : N) : Prop := c = 43 \/ 47 <= c <= 57 \/ 65 <= c <= 90 \/ 97 <= c <= 122.

Lemma b64_chr_alpha : forall v, b64_alpha (b64_chr v).
Proof.
  intros v. unfold b64_alpha, b64_chr.
  destruct (N.ltb_spec v 26); [lia|]. destruct (N.ltb_spec v 52); [lia|].
  destruct (N.ltb_spec v 62); [lia|]. destruct (v =? 62); lia.
Qed.

Lemma b64_val_chr : forall v, v < 64 -> b64_val (b64_chr v) = Some v.
Proof.
  intros v Hv.
  assert (H : forallb (fun v => match b64_val (b64_chr v) with Some w => w =? v | None => false end)
                      (map N.of_nat (seq 0 64)) = true) by (vm_compute; reflexivity).
  rewrite forallb_forall in H. specialize (H v). rewrite in_map_iff in H.
  assert (Hin : exists n, N.of_nat n = v /\ In n (seq 0 64)) by (exists (N.to_nat v); split; [lia|apply in_seq; lia]).
  destruct (b64_val (b64_chr v)); [f_equal; apply N.eqb_eq, H, Hin|discriminate (H Hin)].
Qed.

Lemma b64_go_chr : forall v s quad left pads, v < 64 ->
  b64_go (b64_chr v :: s) quad left pads =
  if quad =? 0 then b64_go s 1 v 0
  else let '(b, q', l') :=
         if quad =? 1 then (left * 4 + v / 16, 2, v mod 16)
         else if quad =? 2 then (left * 16 + v / 4, 3, v mod 4)
         else (left * 64 + v, 0, 0) in
       match b64_go s q' l' 0 with Some r => Some (b :: r) | None => None end.
Proof.
  intros v s quad left pads H. pose proof (b64_val_chr v H) as V. cbn [b64_go].
  destruct (N.eqb_spec (b64_chr v) 61) as [E|_]; [rewrite E in V; discriminate V|].
  rewrite V. reflexivity.
Qed.

Lemma b64_go_quad : forall v1 v2 v3 v4 s l p, v1 < 64 -> v2 < 64 -> v3 < 64 -> v4 < 64 ->
  b64_go (b64_chr v1 :: b64_chr v2 :: b64_chr v3 :: b64_chr v4 :: s) 0 l p =
  match b64_go s 0 0 0 with
  | Some r => Some (v1 * 4 + v2 / 16 :: v2 mod 16 * 16 + v3 / 4 :: v3 mod 4 * 64 + v4 :: r)
  | None => None
  end.
Proof.
  intros. do 4 (rewrite b64_go_chr by assumption; cbn [N.eqb Pos.eqb]).
  destruct (b64_go s 0 0 0); reflexivity.
Qed.

Lemma b64_go_pad2 : forall v1 v2 l p, v1 < 64 -> v2 < 64 ->
  b64_go [b64_chr v1; b64_chr v2; 61; 61] 0 l p = Some [v1 * 4 + v2 / 16].
Proof. intros. do 2 (rewrite b64_go_chr by assumption; cbn [N.eqb Pos.eqb]). reflexivity. Qed.

Lemma b64_go_pad1 : forall v1 v2 v3 l p, v1 < 64 -> v2 < 64 -> v3 < 64 ->
  b64_go [b64_chr v1; b64_chr v2; b64_chr v3; 61] 0 l p = Some [v1 * 4 + v2 / 16; v2 mod 16 * 16 + v3 / 4].
Proof. intros. do 3 (rewrite b64_go_chr by assumption; cbn [N.eqb Pos.eqb]). reflexivity. Qed.

Lemma b64_roundtrip : forall s, Forall byte_ok s -> b64_dec (b64_enc s) = Some s.
Proof.
  unfold b64_dec, byte_ok.
  induction s as [|a|a b|a b c s IH] using list_ind3; intros Hs; cbn [b64_enc].
  - reflexivity.
  - inversion_clear Hs as [|? ? Ha _].
    destruct (digits_lt 4 64 a Ha) as [A1 A0].
    rewrite b64_go_pad2 by lia. rewrite N.div_mul, digits_eq by lia. reflexivity.
  - inversion_clear Hs as [|? ? Ha Hs']. inversion_clear Hs' as [|? ? Hb _].
    destruct (digits_lt 4 64 a Ha) as [A1 A0], (digits_lt 16 16 b Hb) as [B1 B0].
    rewrite b64_go_pad1 by lia.
    rewrite digits_div, digits_mod, N.div_mul, !digits_eq by lia. reflexivity.
  - inversion_clear Hs as [|? ? Ha Hs']. inversion_clear Hs' as [|? ? Hb Hs]. inversion_clear Hs as [|? ? Hc Hs'].
    destruct (digits_lt 4 64 a Ha) as [A1 A0], (digits_lt 16 16 b Hb) as [B1 B0], (digits_lt 64 4 c Hc) as [C1 C0].
    rewrite b64_go_quad, (IH Hs') by lia.
    rewrite !digits_div, !digits_mod, !digits_eq by lia. reflexivity.
Qed.

(* the encoding has 0 or at least 4 characters *)
Lemma b64_enc_not_star : forall s, beqb (b64_enc s) STAR = false.
Proof. intros [|a [|b [|c s]]]; cbn; try reflexivity; destruct (b64_chr (a / 4) =? 42); reflexivity. Qed.

Lemma b64_enc_one_line : forall s, Forall line_safe (b64_enc s).
Proof.
  assert (C : forall v, line_safe (b64_chr v)) by (intros v; pose proof (b64_chr_alpha v); unfold line_safe, b64_alpha in *; lia).
  assert (P : line_safe 61) by (unfold line_safe; lia).
  induction s as [|a|a b|a b c s IH] using list_ind3; cbn [b64_enc];
    repeat (apply Forall_cons; [solve [auto]|]); [constructor..|exact IH].
Qed.

Lemma b64_enc_length : forall s, length (b64_enc s) = (4 * ((length s + 2) / 3))%nat.
Proof.
  induction s as [|a|a b|a b c s IH] using list_ind3; try reflexivity.
  cbn [b64_enc length]. rewrite IH.
  replace (S (S (S (length s))) + 2)%nat with (length s + 2 + 1 * 3)%nat by lia.
  rewrite Nat.div_add by lia. lia.
Qed.

(* every byte of s was read from socket c *)
Definition from_chan (c : chan) (s : tbytes) : Prop := Forall (fun x => snd x = c) s.

Lemma from_tls : forall enc s, from_chan (chan_of enc) s -> enc = true -> all_tls s = true.
Proof.
  intros enc s H ->. apply forallb_forall. intros x Hx.
  rewrite (proj1 (Forall_forall _ _) H x Hx). reflexivity.
Qed.

Lemma from_chan_tag : forall c s, from_chan c (tag_with c s).
Proof. intros. apply Forall_map, Forall_forall. reflexivity. Qed.

Lemma from_chan_recv : forall c buf ch, from_chan c buf -> from_chan c (buf ++ tag_with c ch).
Proof. intros. apply Forall_app. split; [assumption|apply from_chan_tag]. Qed.

Lemma t_take_line_split : forall s l r, t_take_line s = Some (l, r) -> s = l ++ r.
Proof.
  induction s as [|x s IH]; cbn; intros l r H; [discriminate|].
  destruct (fst x =? 10).
  - injection H as <- <-. reflexivity.
  - destruct (t_take_line s) as [[l' r']|]; [|discriminate].
    injection H as <- <-. cbn. f_equal. apply IH. reflexivity.
Qed.

Lemma recv_line_on_chan : forall c chunks buf l r cs,
  from_chan c buf -> recv_line_on c buf chunks = Some (l, r, cs) -> from_chan c l /\ from_chan c r.
Proof.
  induction chunks as [|ch chunks IH]; intros buf l r cs Hb H; cbn in H;
    (destruct (t_take_line buf) as [[l' r']|] eqn:E;
     [injection H as <- <- <-; rewrite (t_take_line_split _ _ _ E) in Hb; exact (proj1 (Forall_app _ _ _) Hb)|]).
  - discriminate.
  - destruct ch; [discriminate|]. exact (IH _ _ _ _ (from_chan_recv _ _ _ Hb) H).
Qed.

Lemma t_lines_concat : forall s, concat (fst (t_lines s)) ++ snd (t_lines s) = s.
Proof.
  induction s as [|x s IH]; cbn; [reflexivity|].
  destruct (t_lines s) as [ls t]. cbn in IH.
  destruct (fst x =? 10); [|destruct ls]; cbn; f_equal; exact IH.
Qed.

Lemma k_scan_chan : forall c ls code used, from_chan c used -> from_chan c (concat ls) ->
  match k_scan code used ls with
  | KDone _ u rest => from_chan c u /\ from_chan c (concat rest)
  | KMore _ u => from_chan c u
  | KBad => True
  end.
Proof.
  induction ls as [|l ls IH]; cbn; intros code used Hu Hl; [exact Hu|].
  apply Forall_app in Hl. destruct Hl as [Hl Hls].
  assert (Hul : from_chan c (used ++ l)) by (apply Forall_app; auto).
  destruct (parse_reply_line (removelast (untag l))) as [[[cd sep] txt]|]; [|exact I].
  destruct (code_conflict code cd); [exact I|].
  destruct (sep =? 45); [apply IH|]; auto.
Qed.

Lemma k_recv_chan : forall c chunks code used buf cd u b cs,
  from_chan c used -> from_chan c buf ->
  k_recv c code used buf chunks = KOk cd u b cs -> from_chan c u /\ from_chan c b.
Proof.
  induction chunks as [|ch chunks IH]; intros code used buf cd u b cs Hu Hb H; cbn in H;
    rewrite <- (t_lines_concat buf) in Hb; destruct (t_lines buf) as [ls tail];
    apply Forall_app in Hb; destruct Hb as [Hl Ht];
    pose proof (k_scan_chan c ls code used Hu Hl) as HS;
    (destruct (k_scan code used ls) as [cd' u' rest| |cd' u'];
     [injection H as <- <- <- <-; split; [|apply Forall_app]; tauto|discriminate|]).
  - discriminate.
  - destruct ch; [discriminate|]. exact (IH _ _ _ _ _ _ _ HS (from_chan_recv _ _ _ Ht) H).
Qed.

Definition KInv (ks : kstate) : Prop := from_chan (chan_of (k_enc ks)) (k_buf ks).

Lemma k_step_ok : forall hs ks op ks' o, KInv ks -> k_step hs ks op = (ks', o) ->
  KInv ks' /\ from_chan (chan_of (ko_enc o)) (ko_used o).
Proof.
  intros hs ks op ks' o HI H. unfold k_step in H. cbv zeta in H.
  destruct (k_recv (chan_of (k_enc ks)) None [] (k_buf ks) (chunks_of (k_enc ks) (k_wire ks)))
    as [code used buf cs| |] eqn:E; [|injection H as <- <-; split; [exact HI|constructor]..].
  destruct (k_recv_chan _ _ None [] _ _ _ _ _ (Forall_nil _) HI E) as [Hu Hb].
  destruct op; [|destruct (beqb code C220); [destruct hs|]]; injection H as <- <-;
    (split; [assumption || constructor|exact Hu]).
Qed.

Theorem client_reads_one_socket : forall hs w ops,
  Forall (fun o => from_chan (chan_of (ko_enc o)) (ko_used o)) (k_run hs (k_init w) ops).
Proof.
  intros hs w ops. assert (HI : KInv (k_init w)) by constructor.
  revert HI. generalize (k_init w). induction ops as [|op ops IH]; intros ks HI; cbn; [constructor|].
  destruct (k_step hs ks op) as [ks' o] eqn:E.
  destruct (k_step_ok _ _ _ _ _ HI E) as [HI' HQ].
  destruct (ko_fin o); constructor; auto.
Qed.

Definition ev_of (x : tstate * tout * tstate) : list tevent := to_events (snd (fst x)).
Definition pre_of (x : tstate * tout * tstate) : tstate := fst (fst x).
Definition post_of (x : tstate * tout * tstate) : tstate := snd x.

(* SmtpSession holds the EHLO identity Server holds *)
Definition fresh (st : sstate) : Prop := forall a, s_ehlo (sv st) = Some a -> e_ehlo (ed st) = Some a.

Definition gate (st : sstate) (m : mech) : Prop :=
  x_auth (ex st) = true /\ is_some (s_ehlo (sv st)) = true /\ s_authed (sv st) = false /\
  s_mail (sv st) = false /\ (m_insecure m = true -> s_encrypted (sv st) = true).

Definition mode_ok (st : sstate) (m : mode) : Prop :=
  match m with MAuthWait mm _ _ => gate st mm | _ => True end.

Definition has_235 (es : list tevent) : Prop := exists enc c, In (TAuth enc c (Some 235)) es.

Definition hello_ev (nv : env) (a : bytes) (es : list tevent) : Prop :=
  exists enc k, (k = KEhlo \/ k = KHelo) /\ In (TCall enc (EvCall k a [] (Some 250))) es /\
                apply_verdict (nv_vf nv k a) 250 = Some 250.

Definition err5 (c : N) : Prop := 500 <= c /\ c <= 599.

Definition refused (st : sstate) (r : sres) : Prop :=
  sr_st r = st /\ sr_mode r = MCmd /\ sr_events r = [] /\ sr_exc r = XNone /\ sr_chal r = [] /\
  sr_flush r = false /\ exists c, sr_replies r = [c] /\ err5 c.

Definition mech_named (arg : option bytes) (n : bytes) : Prop :=
  parse_auth_arg (arg_bytes arg) = PName n \/ exists a, parse_auth_arg (arg_bytes arg) = PArg n a.

Definition is_auth_step (ts : tstate) (consumed : tbytes) : Prop :=
  match t_mode ts with
  | MCmd => classify (parse_line (line_of consumed)) = CAuth
  | MAuthWait _ _ _ => True
  | MData _ => False
  end.

Definition greeted (st : sstate) : Prop :=
  s_ehlo (sv st) = None /\ s_mail (sv st) = false /\ s_rcpt (sv st) = false /\
  x_starttls (ex st) = false.

Definition gate_view (st : sstate) : bool * bool * bool * bool * bool :=
  (x_auth (ex st), is_some (s_ehlo (sv st)), s_authed (sv st), s_mail (sv st), s_encrypted (sv st)).

Definition auth_view (r : sres) : list N * list bytes * list tevent * exc * mode * bool :=
  (sr_replies r, sr_chal r, sr_events r, sr_exc r, sr_mode r, sr_flush r).

(* the mechanism run on the SASL responses themselves *)
Fixpoint mech_run (m : mech) (resps : list (bytes * bytes)) (rs : list bytes)
  : mres * list (bytes * bytes) :=
  match m_attempt m resps with
  | MChal d => match rs with
               | r :: rs' => mech_run m (resps ++ [(d, r)]) rs'
               | [] => (MChal d, resps)
               end
  | x => (x, resps)
  end.

Definition is_call (e : tevent) : Prop := match e with TCall _ _ => True | TAuth _ _ _ => False end.

Lemma calls_map : forall enc es, Forall is_call (map (TCall enc) es).
Proof. intros. apply Forall_forall. intros e H. apply in_map_iff in H. destruct H as (? & <- & _). exact I. Qed.

Lemma calls_no_auth : forall es enc c code, Forall is_call es -> ~ In (TAuth enc c code) es.
Proof. intros es enc c code H Hin. rewrite Forall_forall in H. exact (H _ Hin). Qed.

Local Hint Extern 1 (err5 _) => (unfold err5; lia) : core.

(* by cases on a test the goal branches on, innermost first *)
Local Ltac case_split :=
  match goal with |- context [match ?x with _ => _ end] =>
    lazymatch x with context [match _ with _ => _ end] => fail | _ => destruct x end
  end.

(* what only a greeting, STARTTLS or AUTH changes *)
Definition core (st : sstate) :=
  (s_ehlo (sv st), e_ehlo (ed st), s_authed (sv st), e_auth (ed st), s_encrypted (sv st), ex st).

Lemma core_answers : forall st k a c st', answers st k a c st' ->
  match k with KEhlo | KHelo | KAuth => True | _ => core st' = core st end.
Proof.
  intros st k a c st' []; try exact I; try reflexivity.
  unfold core; cbn. destruct (_ =? 250); reflexivity.
Qed.

(* a command left to model/Server.v: the state is the old one unless a handler answered *)
Lemma core_handle : forall st it cl bad ord r, cases st it cl bad ord r ->
  match cl with
  | CEhlo | CHelo | CStarttls | CAuth | CData => True
  | _ => core (r_st r) = core st
  end.
Proof.
  intros st it cl bad ord r [[]|(_ & _ & [| | |k a ps c rs st' K U _| |])]; subst; try exact I;
    try (destruct cl; exact I || reflexivity).
  apply core_answers in U. destruct cl; try exact I; try discriminate K; injection K as <-; exact U.
Qed.

Lemma core_gmd : forall st it pr pe, core (r_st (get_message_data st it pr pe)) = core st.
Proof. intros. unfold get_message_data, session_HAVE_DATA. repeat (case_split; cbn); reflexivity. Qed.

Lemma core_banner : forall vb st, core (r_st (command_BANNER vb st)) = core st.
Proof. intros. unfold command_BANNER. repeat (case_split; cbn); reflexivity. Qed.

(* what a greeting does: nothing to the core, or handler k accepts a *)
Definition greeting (st : sstate) (k : cbk) (a : bytes) (v : verdict) (r : res) : Prop :=
  core (r_st r) = core st \/
  apply_verdict v 250 = Some 250 /\ r_events r = [EvCall k a [] (Some 250)] /\
  s_ehlo (sv (r_st r)) = Some a /\ e_ehlo (ed (r_st r)) = Some a /\
  s_authed (sv (r_st r)) = s_authed (sv st) /\ e_auth (ed (r_st r)) = e_auth (ed st) /\
  s_encrypted (sv (r_st r)) = s_encrypted (sv st) /\
  (x_starttls (ex (r_st r)) = true -> x_starttls (ex st) = true).

Lemma greeting_cases : forall st arg v,
  greeting st KEhlo (arg_bytes arg) v (command_EHLO st arg v) /\
  greeting st KHelo (arg_bytes arg) v (command_HELO st arg v).
Proof.
  intros. unfold command_EHLO, command_HELO, arg_bytes.
  split;
    (destruct (negb (s_bannered (sv st))); [left; reflexivity|];
     destruct (negb (nonempty arg)); [left; reflexivity|];
     destruct (utf8_dec _); [|left; reflexivity];
     destruct (apply_verdict v 250) as [c|] eqn:Ev; [|left; reflexivity];
     destruct (N.eqb_spec c 250) as [->|]; [right|left; reflexivity]);
    repeat split; cbn; auto; discriminate.
Qed.

Lemma refused_just : forall st c, err5 c -> refused st (s_just st c).
Proof. intros st c H. unfold refused, s_just; cbn. repeat split; eauto. Qed.

Lemma refused_if : forall (b : bool) st c r, err5 c -> refused st r -> refused st (if b then s_just st c else r).
Proof. intros [|]; auto using refused_just. Qed.

Section Session.
  Variable mechs : bytes -> option mech.
  Variable nv : env.

  Definition mech_in_use (md : mode) (arg : option bytes) (m : mech) : Prop :=
    match md with
    | MCmd => exists n, mech_named arg n /\ mechs n = Some m
    | MAuthWait m' _ _ => m = m'
    | MData _ => False
    end.

  (* the AUTH command and every answer line end in one of three ways; G is what is known of the
     mechanism in use *)
  Inductive auth_out (G : mech -> Prop) (st : sstate) : sres -> Prop :=
  | AO_no c : err5 c -> auth_out G st (s_just st c)
  | AO_chal m resps d : G m ->
      auth_out G st (mk_s st (MAuthWait m resps d) [334] [b64_enc d] [] XNone false)
  | AO_fin m c : G m -> auth_out G st (auth_finish nv st c).

  Lemma ao_turn : forall (G : mech -> Prop) st m resps, G m -> auth_out G st (auth_turn nv st m resps).
  Proof.
    intros G st m resps Hm. unfold auth_turn.
    destruct (m_attempt m resps); eauto using auth_out.
  Qed.

  Lemma ao_response : forall (G : mech -> Prop) st m resps chal resp, G m ->
    auth_out G st (auth_response nv st m resps chal resp).
  Proof.
    intros G st m resps chal resp Hm. unfold auth_response.
    destruct (beqb resp STAR); [eauto using auth_out|].
    destruct (b64_dec resp); eauto using auth_out, ao_turn.
  Qed.

  Lemma ao_AUTH : forall st arg,
    auth_out (fun m => gate st m /\ mech_in_use MCmd arg m) st (t_command_AUTH mechs nv st arg).
  Proof.
    intros st arg. unfold t_command_AUTH.
    destruct (x_auth (ex st)) eqn:Ex; cbn [negb]; [|eauto using auth_out].
    destruct (is_some (s_ehlo (sv st))) eqn:Eh; cbn [negb orb]; [|eauto using auth_out].
    destruct (s_authed (sv st)) eqn:Ea; cbn [orb]; [eauto using auth_out|].
    destruct (s_mail (sv st)) eqn:Em; [eauto using auth_out|].
    destruct (negb (nonempty arg)); [eauto using auth_out|].
    destruct (parse_auth_arg (arg_bytes arg)) as [|n|n a] eqn:Ep; [eauto using auth_out| |];
      (destruct (mechs n) as [m|] eqn:En; [|eauto using auth_out]);
      (destruct (m_insecure m && negb (s_encrypted (sv st))) eqn:Ei; [eauto using auth_out|]);
      (assert (G : gate st m /\ mech_in_use MCmd arg m)
         by (split; [repeat split; auto; intros Hi; rewrite Hi in Ei;
                     destruct (s_encrypted (sv st)); [reflexivity|discriminate]
                    |exists n; unfold mech_named; eauto])).
    - apply ao_turn, G.
    - destruct (m_attempt m []); eauto using auth_out, ao_response.
  Qed.

  Lemma auth_finish_cases : forall st c,
    sr_mode (auth_finish nv st c) = MCmd /\
    exists code, sr_events (auth_finish nv st c) = [TAuth (s_encrypted (sv st)) c code] /\
      (sr_st (auth_finish nv st c) = st \/
       code = Some 235 /\
       sr_st (auth_finish nv st c) =
       {| sv := set_authed true (sv st); ex := ex st; ed := set_e_auth (Some (cr_cid c)) (ed st) |}).
  Proof.
    intros st c. unfold auth_finish.
    destruct (apply_verdict (nv_vf nv KAuth (cr_cid c)) 235) as [code|]; [|cbn; eauto].
    destruct (N.eqb_spec code 235) as [->|]; cbn; (split; [reflexivity|eexists; split; [reflexivity|]]);
      [right; auto|left; destruct st; reflexivity].
  Qed.

  Set Implicit Arguments.

  (* what holds of every line the session executes: st, st' the state before and after, m' the mode
     after, es the events, fl says that recv_buffer was emptied; U is what is known of the
     mechanism when the AUTH handler is called *)
  Record ok_step (U : mech -> Prop) (st st' : sstate) (m' : mode) (es : list tevent) (fl : Prop) : Prop := {
    ok_enc : s_encrypted (sv st') = s_encrypted (sv st) \/
             (fl /\ st' = tls_state st /\ m' = MCmd /\ In (TCall true EvTls) es);
    ok_stls : x_starttls (ex st') = true -> x_starttls (ex st) = true;
    ok_fresh : fresh st -> fresh st';
    ok_ehlo : forall a, s_ehlo (sv st') = Some a -> s_ehlo (sv st) = Some a \/ hello_ev nv a es;
    ok_authed : s_authed (sv st') = true -> s_authed (sv st) = true \/ has_235 es;
    ok_eauth : e_auth (ed st') = e_auth (ed st) \/
               exists enc c, In (TAuth enc c (Some 235)) es /\ e_auth (ed st') = Some (cr_cid c);
    ok_mode : mode_ok st' m';
    ok_tauth : forall enc c code, In (TAuth enc c code) es ->
               enc = s_encrypted (sv st) /\ exists m, gate st m /\ U m
  }.

  Record Inv (ts : tstate) : Prop := {
    i_buf : from_chan (chan_of (t_enc ts)) (t_buf ts);
    i_stls : t_enc ts = true -> x_starttls (ex (t_st ts)) = false;
    i_mode : mode_ok (t_st ts) (t_mode ts);
    i_fresh : fresh (t_st ts)
  }.

  Record StepOk (x : tstate * tout * tstate) : Prop := {
    q_encflag : to_enc (snd (fst x)) = t_enc (pre_of x);
    q_line : from_chan (chan_of (to_enc (snd (fst x)))) (to_line (snd (fst x)));
    q_step : ok_step (mech_in_use (t_mode (pre_of x)) (l_arg (parse_line (line_of (to_line (snd (fst x)))))))
                     (t_st (pre_of x)) (t_st (post_of x)) (t_mode (post_of x)) (ev_of x)
                     (t_buf (post_of x) = []);
    q_inv : Inv (post_of x)
  }.

  Unset Implicit Arguments.

  Definition ok_res (U : mech -> Prop) (st : sstate) (r : sres) : Prop :=
    ok_step U st (sr_st r) (sr_mode r) (sr_events r) (sr_flush r = true).

  Lemma ok_core : forall U st st' m rs ch es x fl,
    core st' = core st -> mode_ok st' m -> Forall is_call es -> ok_res U st (mk_s st' m rs ch es x fl).
  Proof.
    intros U st st' m rs ch es x fl C Hm Hes. injection C as C1 C2 C3 C4 C5 C6.
    constructor; cbn; unfold fresh; rewrite ?C1, ?C2, ?C3, ?C4, ?C5, ?C6; auto.
    intros enc c code H. destruct (calls_no_auth _ _ _ _ Hes H).
  Qed.

  Lemma ok_same : forall U st m rs ch es x fl,
    mode_ok st m -> Forall is_call es -> ok_res U st (mk_s st m rs ch es x fl).
  Proof. intros. apply ok_core; auto. Qed.

  Lemma ok_greeting : forall U st k a r, k = KEhlo \/ k = KHelo ->
    greeting st k a (nv_vf nv k a) r -> ok_res U st (of_res (s_encrypted (sv st)) r).
  Proof.
    intros U st k a r Hk [C|(V & Ev & H1 & H2 & H3 & H4 & H5 & H6)]; [apply ok_core; [exact C|exact I|apply calls_map]|].
    constructor; cbn; rewrite ?H3, ?H4, ?H5; auto.
    - intros _ b Hb. congruence.
    - intros b Hb. right. exists (s_encrypted (sv st)), k. rewrite Ev.
      replace b with a by congruence. cbn. auto.
    - intros enc c code H. destruct (calls_no_auth _ _ _ _ (calls_map _ _) H).
  Qed.

  Lemma ok_auth_out : forall (U : mech -> Prop) st r,
    auth_out (fun m => gate st m /\ U m) st r -> ok_res U st r.
  Proof.
    intros U st r [c Hc|m resps d G|m c G]; try (apply ok_same; [apply G || exact I|constructor]).
    destruct (auth_finish_cases st c) as (Hm & code & He & Hs).
    assert (T : forall enc c' code', In (TAuth enc c' code') (sr_events (auth_finish nv st c)) ->
                enc = s_encrypted (sv st) /\ exists m, gate st m /\ U m).
    { rewrite He. intros enc c' code' [H|[]]. injection H as <- _ _. eauto. }
    destruct Hs as [Hs|[-> Hs]]; constructor; try exact T; rewrite ?Hs, ?Hm, ?He; cbn; auto.
    all: intros; right; unfold has_235; cbn; eauto 6.
  Qed.

  Lemma ok_STARTTLS : forall U st arg v hs, ok_res U st (t_command_STARTTLS st arg v hs).
  Proof.
    intros U st arg v hs. unfold t_command_STARTTLS.
    repeat case_split; try (apply ok_same; [exact I|constructor]).
    constructor; cbn; auto; try discriminate.
    - right. auto.
    - intros enc c code [H|[]]. discriminate H.
  Qed.

  Lemma ok_data_start : forall U st arg, ok_res U st (t_data_start nv st arg).
  Proof.
    intros U st arg. unfold t_data_start.
    repeat case_split; apply ok_same; try exact I; repeat constructor.
  Qed.

  Lemma ok_data_line : forall U st acc raw, ok_res U st (t_data_line nv st acc raw).
  Proof.
    intros U st acc raw. unfold t_data_line. destruct (is_eod raw).
    - apply ok_core; [apply core_gmd|exact I|apply calls_map].
    - apply ok_same; [exact I|constructor].
  Qed.

  Lemma ok_exec : forall st l, ok_res (mech_in_use MCmd (l_arg l)) st (t_exec_cmd mechs nv st l).
  Proof.
    intros st l. unfold t_exec_cmd.
    pose proof (core_handle _ _ _ _ _ _ (handle_command_cases st (cmd_item nv l))) as C.
    unfold handle_command in *. cbn [cmd_item it_line it_v1] in *.
    destruct (classify l);
      try (apply ok_core; [exact C|exact I|apply calls_map]).
    - exact (ok_greeting _ _ _ _ _ (or_introl eq_refl) (proj1 (greeting_cases _ _ _))).
    - exact (ok_greeting _ _ _ _ _ (or_intror eq_refl) (proj2 (greeting_cases _ _ _))).
    - apply ok_STARTTLS.
    - apply ok_auth_out, ao_AUTH.
    - apply ok_data_start.
  Qed.

  Lemma ok_dispatch : forall st m consumed, mode_ok st m ->
    ok_res (mech_in_use m (l_arg (parse_line (line_of consumed)))) st (t_dispatch mechs nv st m consumed).
  Proof.
    intros st m consumed Hm. destruct m; cbn [t_dispatch].
    - apply ok_exec.
    - apply ok_auth_out, ao_response. split; [exact Hm|reflexivity].
    - apply ok_data_line.
  Qed.

  Lemma step_ok : forall ts r line rest w o, Inv ts ->
    ok_res (mech_in_use (t_mode ts) (l_arg (parse_line (line_of line)))) (t_st ts) r ->
    from_chan (chan_of (t_enc ts)) line -> from_chan (chan_of (t_enc ts)) rest ->
    to_enc o = t_enc ts -> to_line o = line -> to_events o = sr_events r ->
    StepOk (ts, o, {| t_st := sr_st r; t_mode := sr_mode r;
                      t_buf := if sr_flush r then [] else rest; t_wire := w |}).
  Proof.
    intros ts r line rest w o HI OK Hl Hr Henc Hline Hev.
    constructor; unfold pre_of, post_of, ev_of; cbn; rewrite ?Henc, ?Hline, ?Hev; [reflexivity|exact Hl| |].
    - destruct OK as [[E|(-> & E)]]; constructor; auto.
    - constructor; unfold t_enc; cbn; try apply OK; [| |apply HI].
      + destruct (ok_enc OK) as [->|(-> & _)]; [destruct (sr_flush r)|]; (constructor || exact Hr).
      + destruct (ok_enc OK) as [->|(_ & -> & _)]; [intros H0|reflexivity].
        destruct (x_starttls (ex (sr_st r))) eqn:Ex; [|reflexivity].
        rewrite <- (i_stls HI H0). symmetry. exact (ok_stls OK Ex).
  Qed.

  Lemma t_step_ok : forall ts ts' o, Inv ts -> t_step mechs nv ts = (ts', o) -> StepOk (ts, o, ts').
  Proof.
    intros ts ts' o HI H. unfold t_step in H. cbv zeta in H.
    destruct (recv_line_on (chan_of (t_enc ts)) (t_buf ts) (chunks_of (t_enc ts) (t_wire ts)))
      as [[[consumed rest] cs]|] eqn:ER; injection H as <- <-.
    - destruct (recv_line_on_chan _ _ _ _ _ _ (i_buf HI) ER). apply (step_ok _ _ consumed rest); auto.
      apply ok_dispatch, HI.
    - destruct ts as [st m buf w].
      apply (step_ok _ (mk_s st m [] [] [] XNone false) [] buf); auto; [|constructor|apply HI].
      apply ok_same; [apply HI|constructor].
  Qed.

  Inductive chain : tstate -> list (tstate * tout * tstate) -> Prop :=
  | chain_nil ts : chain ts []
  | chain_cons ts o ts' tr : StepOk (ts, o, ts') -> chain ts' tr -> chain ts ((ts, o, ts') :: tr).

  Lemma chain_all : forall ts tr, chain ts tr -> Forall StepOk tr.
  Proof. induction 1; constructor; assumption. Qed.

  (* what holds after a step held before the run or arose in a step up to it *)
  Lemma chain_origin : forall (P : sstate -> Prop) (E : list tevent -> Prop),
    (forall x, StepOk x -> P (t_st (post_of x)) -> P (t_st (pre_of x)) \/ E (ev_of x)) ->
    forall ts tr, chain ts tr -> forall pre x post, tr = pre ++ x :: post -> P (t_st (post_of x)) ->
    P (t_st ts) \/ exists y, In y (pre ++ [x]) /\ E (ev_of y).
  Proof.
    intros P E HS ts tr C. induction C as [|ts o ts' tr Q C IH]; intros pre x post Heq HP.
    - destruct pre; discriminate.
    - destruct pre as [|p pre]; injection Heq as <- Heq.
      + destruct (HS _ Q HP) as [H|H]; [left; exact H|right; exists (ts, o, ts'); cbn; auto].
      + destruct (IH _ _ _ Heq HP) as [H|(y & Hy & H)]; [|right; exists y; cbn; auto].
        destruct (HS _ Q H) as [H'|H']; [left; exact H'|right; exists (ts, o, ts'); cbn; auto].
  Qed.

  Lemma t_loop_ok : forall fuel ts, Inv ts -> chain ts (t_loop mechs fuel nv ts).
  Proof.
    induction fuel as [|f IH]; intros ts HI; cbn; [constructor|].
    destruct (t_step mechs nv ts) as [ts' o] eqn:E.
    pose proof (t_step_ok ts ts' o HI E) as Q.
    destruct (to_fin o); constructor; try assumption; [apply IH, Q|constructor..].
  Qed.

  Lemma banner_ok : forall st st' w o,
    Inv {| t_st := st; t_mode := MCmd; t_buf := []; t_wire := w |} ->
    core st' = core st -> Forall is_call (to_events o) ->
    to_enc o = s_encrypted (sv st) -> to_line o = [] ->
    StepOk ({| t_st := st; t_mode := MCmd; t_buf := []; t_wire := w |}, o,
            {| t_st := st'; t_mode := MCmd; t_buf := []; t_wire := w |}).
  Proof.
    intros st st' w o HI C Hes Henc Hline.
    apply (step_ok _ (mk_s st' MCmd [] [] (to_events o) XNone false) [] []); auto; [|constructor..].
    apply ok_core; [exact C|exact I|exact Hes].
  Qed.

  Lemma session_ok : forall fuel cfg w, exists ts0,
    s_authed (sv (t_st ts0)) = false /\ s_ehlo (sv (t_st ts0)) = None /\
    chain ts0 (t_session mechs fuel cfg nv w).
  Proof.
    intros fuel cfg w. unfold t_session, t_init. cbv zeta.
    set (imm := cfg_context cfg && cfg_tls_immediately cfg).
    destruct (imm && negb (nv_hs nv)).
    - exists {| t_st := init_state cfg; t_mode := MCmd; t_buf := []; t_wire := w |}.
      repeat split. constructor; [|constructor].
      apply banner_ok; auto; constructor; cbn; unfold fresh; cbn; auto; (constructor || discriminate).
    - set (st1 := if imm then encrypted_state (init_state cfg) else init_state cfg).
      set (r := command_BANNER (nv_vf nv KBanner []) st1).
      assert (Q : StepOk ({| t_st := st1; t_mode := MCmd; t_buf := []; t_wire := w |},
                          banner_out imm (r_replies r ++ extra_reply (r_exc r))
                            ((if imm then [TCall true EvTls] else []) ++ map (TCall imm) (r_events r))
                            (fin_of (r_exc r)),
                          {| t_st := r_st r; t_mode := MCmd; t_buf := []; t_wire := w |})).
      { apply banner_ok; cbn; auto.
        - constructor; unfold t_enc, fresh, st1; cbn; auto; [constructor| |].
          + unfold imm. destruct (cfg_context cfg) eqn:Ec, (cfg_tls_immediately cfg) eqn:Et; cbn;
              rewrite ?Ec, ?Et; intros H; (reflexivity || discriminate H).
          + destruct imm; intros a H; discriminate H.
        - apply core_banner.
        - apply Forall_app. split; [destruct imm; repeat constructor|apply calls_map].
        - unfold st1. destruct imm; reflexivity. }
      exists {| t_st := st1; t_mode := MCmd; t_buf := []; t_wire := w |}.
      repeat split; try (unfold st1; destruct imm; reflexivity).
      destruct (r_exc r); constructor; try assumption; [apply t_loop_ok, Q|constructor..].
  Qed.

  Lemma session_all : forall fuel cfg w x, In x (t_session mechs fuel cfg nv w) -> StepOk x.
  Proof.
    intros fuel cfg w. destruct (session_ok fuel cfg w) as (ts0 & _ & _ & C).
    apply Forall_forall, (chain_all _ _ C).
  Qed.

  Lemma session_origin : forall (P : sstate -> Prop) (E : list tevent -> Prop),
    (forall x, StepOk x -> P (t_st (post_of x)) -> P (t_st (pre_of x)) \/ E (ev_of x)) ->
    (forall st, s_authed (sv st) = false -> s_ehlo (sv st) = None -> ~ P st) ->
    forall fuel cfg w pre x post, t_session mechs fuel cfg nv w = pre ++ x :: post ->
    P (t_st (post_of x)) -> exists y, In y (pre ++ [x]) /\ E (ev_of y).
  Proof.
    intros P E HS H0 fuel cfg w pre x post Heq HP.
    destruct (session_ok fuel cfg w) as (ts0 & A0 & E0 & C).
    destruct (chain_origin P E HS _ _ C _ _ _ Heq HP) as [H|H]; [destruct (H0 _ A0 E0 H)|exact H].
  Qed.

  Lemma session_ehlo : forall fuel cfg w pre x post a,
    t_session mechs fuel cfg nv w = pre ++ x :: post ->
    s_ehlo (sv (t_st (post_of x))) = Some a ->
    exists y, In y (pre ++ [x]) /\ hello_ev nv a (ev_of y).
  Proof.
    intros fuel cfg w pre x post a.
    apply (session_origin (fun st => s_ehlo (sv st) = Some a) (hello_ev nv a)).
    - intros y Q. apply (ok_ehlo (q_step Q)).
    - congruence.
  Qed.

  Lemma rejected_greetings_no_identity : forall fuel cfg w x,
    (forall k a, (k = KEhlo \/ k = KHelo) -> apply_verdict (nv_vf nv k a) 250 <> Some 250) ->
    In x (t_session mechs fuel cfg nv w) -> s_ehlo (sv (t_st (post_of x))) = None.
  Proof.
    intros fuel cfg w x Hrej Hx. apply in_split in Hx. destruct Hx as (pre & post & Hx).
    destruct (s_ehlo (sv (t_st (post_of x)))) as [a|] eqn:Ha; [|reflexivity].
    destruct (session_ehlo _ _ _ _ _ _ _ Hx Ha) as (y & _ & enc & k & Hk & _ & Hv).
    destruct (Hrej k a Hk Hv).
  Qed.

  Lemma auth_refused_state : forall st arg,
    s_ehlo (sv st) = None \/ s_authed (sv st) = true \/ s_mail (sv st) = true ->
    refused st (t_command_AUTH mechs nv st arg).
  Proof.
    intros st arg H.
    destruct (ao_AUTH st arg) as [c Hc|m ? ? G|m ? G]; [exact (refused_just st c Hc)| |];
      destruct G as [(_ & G1 & G2 & G3 & _) _], H as [H|[H|H]]; rewrite H in *; discriminate.
  Qed.

  Lemma auth_refused_insecure : forall st arg n m,
    mech_named arg n -> mechs n = Some m -> m_insecure m = true -> s_encrypted (sv st) = false ->
    refused st (t_command_AUTH mechs nv st arg).
  Proof.
    intros st arg n m Hn Hm Hi He. unfold t_command_AUTH. do 3 (apply refused_if; [auto|]).
    destruct Hn as [Hn|[a Hn]]; rewrite Hn, Hm, Hi, He; apply refused_just; auto.
  Qed.

  Lemma auth_refused_unknown : forall st arg,
    parse_auth_arg (arg_bytes arg) = PBad \/ (exists n, mech_named arg n /\ mechs n = None) ->
    refused st (t_command_AUTH mechs nv st arg).
  Proof.
    intros st arg H. unfold t_command_AUTH. do 3 (apply refused_if; [auto|]).
    destruct H as [H|(n & [Hn|[a Hn]] & Hm)]; rewrite ?H, ?Hn, ?Hm; apply refused_just; auto.
  Qed.

  Definition auth_shape (r : sres) : Prop :=
    (exists enc c code, sr_events r = [TAuth enc c code]) \/
    (sr_events r = [] /\ sr_exc r = XNone /\ exists c, sr_replies r = [c] /\ (c = 334 \/ err5 c)).

  Lemma ao_shape : forall G st r, auth_out G st r -> auth_shape r.
  Proof.
    intros G st r [c Hc|m resps d _|m c _]; [right; cbn; eauto 6..|left].
    destruct (auth_finish_cases st c) as (_ & code & -> & _). eauto.
  Qed.

  Lemma step_auth_shape : forall ts ts' o,
    t_step mechs nv ts = (ts', o) -> to_fin o <> TLost -> is_auth_step ts (to_line o) ->
    (exists enc c code, to_events o = [TAuth enc c code]) \/
    (to_events o = [] /\ to_fin o = TContinue /\
     exists c, to_replies o = [c] /\ (c = 334 \/ err5 c)).
  Proof.
    intros ts ts' o H Hl Ha. unfold t_step in H. cbv zeta in H.
    destruct (recv_line_on (chan_of (t_enc ts)) (t_buf ts) (chunks_of (t_enc ts) (t_wire ts)))
      as [[[consumed rest] cs]|]; injection H as <- <-; [|destruct (Hl eq_refl)].
    cbn in *.
    assert (S : auth_shape (t_dispatch mechs nv (t_st ts) (t_mode ts) consumed)).
    { unfold is_auth_step in Ha. destruct (t_mode ts); cbn [t_dispatch].
      - unfold t_exec_cmd. rewrite Ha. exact (ao_shape _ _ _ (ao_AUTH _ _)).
      - exact (ao_shape (fun _ => True) _ _ (ao_response _ _ _ _ _ _ I)).
      - destruct Ha. }
    destruct S as [S|(-> & -> & c & -> & Hc)]; [left; exact S|right; cbn; eauto].
  Qed.

  (* in the state a handshake leaves nothing but a greeting is accepted (a bare MAIL or RCPT
     raises, so the conclusion is not `refused`) *)
  Lemma greeted_refuses : forall st l, greeted st ->
    match classify l with CMail | CRcpt | CData | CAuth | CStarttls => True | _ => False end ->
    sr_st (t_exec_cmd mechs nv st l) = st /\ sr_events (t_exec_cmd mechs nv st l) = [] /\
    sr_mode (t_exec_cmd mechs nv st l) = MCmd.
  Proof.
    intros st l (G1 & G2 & G3 & G4) Hc. unfold t_exec_cmd.
    pose proof (handle_command_cases st (cmd_item nv l)) as H. unfold in_order in H. cbn [cmd_item it_line] in H.
    destruct (classify l); try destruct Hc.
    (* MAIL, RCPT: out of order, so not acted upon *)
    3, 4: rewrite ?G1, ?G2 in H; destruct H as [[]|(_ & O & _)]; [auto..|discriminate O].
    - unfold t_command_STARTTLS. rewrite G4. auto.
    - destruct (auth_refused_state st (l_arg l) (or_introl G1)) as (R1 & R2 & R3 & _). auto.
    - unfold t_data_start. rewrite G2. destruct (nonempty (l_arg l)); auto.
  Qed.

  Lemma view_finish : forall st1 st2 c, s_encrypted (sv st1) = s_encrypted (sv st2) ->
    auth_view (auth_finish nv st1 c) = auth_view (auth_finish nv st2 c).
  Proof.
    intros st1 st2 c He. unfold auth_finish, auth_view. rewrite He.
    destruct (apply_verdict (nv_vf nv KAuth (cr_cid c)) 235); reflexivity.
  Qed.

  Lemma view_turn : forall st1 st2 m resps, s_encrypted (sv st1) = s_encrypted (sv st2) ->
    auth_view (auth_turn nv st1 m resps) = auth_view (auth_turn nv st2 m resps).
  Proof.
    intros st1 st2 m resps He. unfold auth_turn.
    destruct (m_attempt m resps); try reflexivity. apply view_finish, He.
  Qed.

  Lemma view_response : forall st1 st2 m resps chal resp, s_encrypted (sv st1) = s_encrypted (sv st2) ->
    auth_view (auth_response nv st1 m resps chal resp) = auth_view (auth_response nv st2 m resps chal resp).
  Proof.
    intros st1 st2 m resps chal resp He. unfold auth_response.
    destruct (beqb resp STAR); [reflexivity|].
    destruct (b64_dec resp); [apply view_turn, He|reflexivity].
  Qed.

  Theorem auth_command_independent : forall st1 st2 arg, gate_view st1 = gate_view st2 ->
    auth_view (t_command_AUTH mechs nv st1 arg) = auth_view (t_command_AUTH mechs nv st2 arg).
  Proof.
    intros st1 st2 arg H. injection H as H1 H2 H3 H4 H5.
    unfold t_command_AUTH. rewrite H1, H2, H3, H4, H5.
    repeat (case_split; try reflexivity); auto using view_turn, view_finish, view_response.
  Qed.

  Theorem auth_command_state : forall st arg,
    sr_st (t_command_AUTH mechs nv st arg) = st \/
    exists c, In (TAuth (s_encrypted (sv st)) c (Some 235)) (sr_events (t_command_AUTH mechs nv st arg)) /\
              sr_st (t_command_AUTH mechs nv st arg) =
              {| sv := set_authed true (sv st); ex := ex st; ed := set_e_auth (Some (cr_cid c)) (ed st) |}.
  Proof.
    intros st arg. destruct (ao_AUTH st arg) as [c Hc|m resps d _|m c _]; [left; reflexivity..|].
    destruct (auth_finish_cases st c) as (_ & code & -> & [->|[-> ->]]);
      [left; reflexivity|right; exists c; cbn; auto].
  Qed.

  (* the server's side of the exchange, fed with the client's lines *)
  Fixpoint feed (st : sstate) (r : sres) (lines : list bytes) : sres :=
    match sr_mode r, lines with
    | MAuthWait m resps chal, l :: ls => feed st (auth_response nv st m resps chal l) ls
    | _, _ => r
    end.

  Definition spec_result (st : sstate) (m : mech) (x : mres * list (bytes * bytes)) : sres :=
    match x with
    | (MCreds c, _) => auth_finish nv st c
    | (MChal d, resps) => mk_s st (MAuthWait m resps d) [334] [b64_enc d] [] XNone false
    | (_, _) => s_just st 501
    end.

  Lemma response_enc : forall st m resps chal r, Forall byte_ok r ->
    auth_response nv st m resps chal (b64_enc r) = auth_turn nv st m (resps ++ [(chal, r)]).
  Proof.
    intros. unfold auth_response. rewrite b64_enc_not_star, b64_roundtrip by assumption. reflexivity.
  Qed.

  Lemma feed_cmd : forall st r ls, sr_mode r = MCmd -> feed st r ls = r.
  Proof. intros st r ls H. destruct ls; cbn; rewrite H; reflexivity. Qed.

  Lemma feed_exact : forall st m rs resps, Forall (Forall byte_ok) rs ->
    feed st (auth_turn nv st m resps) (map b64_enc rs) = spec_result st m (mech_run m resps rs).
  Proof.
    intros st m rs. induction rs as [|r rs IH]; intros resps Hrs; cbn [map mech_run]; unfold auth_turn at 1;
      destruct (m_attempt m resps); cbn [spec_result]; try reflexivity;
      try (apply feed_cmd, (proj1 (auth_finish_cases _ _))).
    inversion_clear Hrs. cbn [feed sr_mode mk_s]. rewrite response_enc by assumption. auto.
  Qed.

  (* an initial response given with the AUTH command *)
  Lemma feed_exact_initial : forall st m d r0 rs,
    m_attempt m [] = MChal d -> Forall byte_ok r0 -> Forall (Forall byte_ok) rs ->
    feed st (auth_response nv st m [] d (b64_enc r0)) (map b64_enc rs)
    = spec_result st m (mech_run m [] (r0 :: rs)).
  Proof.
    intros st m d r0 rs Hm H0 Hrs. rewrite response_enc by assumption.
    cbn [mech_run]. rewrite Hm. apply feed_exact, Hrs.
  Qed.

  Lemma finish_event : forall st c enc c' code,
    In (TAuth enc c' code) (sr_events (auth_finish nv st c)) -> c' = c.
  Proof.
    intros st c enc c' code H. destruct (auth_finish_cases st c) as (_ & code' & He & _).
    rewrite He in H. destruct H as [H|[]]. injection H as _ <- _. reflexivity.
  Qed.
End Session.

Definition no_nul (s : bytes) : Prop := Forall (fun b => b <> 0) s.

Lemma split_nul_nonul : forall s, no_nul s -> split_nul s = [s].
Proof.
  induction s as [|c s IH]; intros H; cbn; [reflexivity|].
  inversion_clear H. destruct (N.eqb_spec c 0); [contradiction|].
  rewrite IH by assumption. reflexivity.
Qed.

Lemma split_nul_app : forall a s, no_nul a -> split_nul (a ++ 0 :: s) = a :: split_nul s.
Proof.
  induction a as [|c a IH]; intros s H; cbn; [reflexivity|].
  inversion_clear H. destruct (N.eqb_spec c 0); [contradiction|].
  rewrite IH by assumption. reflexivity.
Qed.

Lemma plain_exact : forall ch zid cid sec rest,
  no_nul zid -> no_nul cid -> no_nul sec -> cid <> [] ->
  is_utf8 zid = true -> is_utf8 cid = true -> is_utf8 sec = true ->
  plain_attempt ((ch, zid ++ 0 :: cid ++ 0 :: sec) :: rest) =
  MCreds {| cr_kind := 0; cr_cid := cid; cr_secret := sec;
            cr_zid := match zid with [] => cid | _ => zid end |}.
Proof.
  intros ch zid cid sec rest Hz Hc Hs Hne Uz Uc Us. unfold plain_attempt.
  rewrite split_nul_app, split_nul_app, split_nul_nonul by assumption.
  destruct cid as [|c0 cid]; [congruence|]. rewrite Uz, Uc, Us. reflexivity.
Qed.

(* concrete sessions: witnesses, and the hypotheses of the theorems can be met *)
Definition bsl (l : list N) : bytes := l.
Definition keep_env (hs : bool) : env :=
  {| nv_vf := fun _ _ => VKeep; nv_queued := fun _ => VKeep; nv_qf := fun _ => QOk; nv_hs := hs;
     nv_stls := VKeep |}.
Definition ex_cfg (imm : bool) : config :=
  {| cfg_context := true; cfg_tls_immediately := imm; cfg_tls_imm_ok := true; cfg_auth := true;
     cfg_max_size := None |}.
Definition ex_mechs := std_mechs true [].

(* "EHLO a\r\nSTARTTLS\r\n" *)
Definition W_EHLO_STARTTLS : bytes :=
  [69;72;76;79;32;97;13;10; 83;84;65;82;84;84;76;83;13;10].
(* "EHLO a\r\nAUTH PLAIN AHUAcA==\r\n"   (AHUAcA== = NUL u NUL p) *)
Definition W_EHLO_AUTH : bytes :=
  [69;72;76;79;32;97;13;10; 65;85;84;72;32;80;76;65;73;78;32;65;72;85;65;99;65;61;61;13;10].

Definition tr_starttls := t_session ex_mechs 40 (ex_cfg false) (keep_env true)
                                    {| w_plain := [W_EHLO_STARTTLS]; w_tls := [] |}.
Definition tr_auth_tls := t_session ex_mechs 40 (ex_cfg true) (keep_env true)
                                    {| w_plain := []; w_tls := [W_EHLO_AUTH] |}.
Definition tr_auth_clear := t_session ex_mechs 40 (ex_cfg false) (keep_env true)
                                    {| w_plain := [W_EHLO_AUTH]; w_tls := [] |}.

(* the handshake step exists (hypotheses of C08_state_after_tls), and the edge still holds the
   identity given in clear text afterwards *)
Example ex_handshake_step :
  existsb (fun x => negb (t_enc (pre_of x)) && t_enc (post_of x) &&
                    is_some (e_ehlo (ed (t_st (post_of x)))) &&
                    negb (is_some (s_ehlo (sv (t_st (post_of x))))))
          tr_starttls = true.
Proof. vm_compute. reflexivity. Qed.

Theorem edge_ehlo_survives : exists mechs nv fuel cfg w x,
  In x (t_session mechs fuel cfg nv w) /\ t_enc (pre_of x) = false /\ t_enc (post_of x) = true /\
  e_ehlo (ed (t_st (post_of x))) <> None.
Proof.
  pose proof ex_handshake_step as H. apply existsb_exists in H. destruct H as (x & Hx & Hb).
  do 5 eexists. exists x. split; [exact Hx|].   (* the session is tr_starttls *)
  repeat (apply andb_true_iff in Hb; destruct Hb as [Hb ?]).
  repeat split.
  - destruct (t_enc (pre_of x)); [discriminate|reflexivity].
  - assumption.
  - destruct (e_ehlo (ed (t_st (post_of x)))); [discriminate|discriminate].
Qed.

(* AUTH PLAIN over immediate TLS is accepted: the session ends authenticated, the handler saw
   (u, p, u) with the encryption flag set *)
Example ex_auth_tls :
  existsb (fun x => s_authed (sv (t_st (post_of x))) &&
                    match ev_of x with
                    | [TAuth true c (Some 235)] =>
                        beqb (cr_cid c) [117] && beqb (cr_secret c) [112] && beqb (cr_zid c) [117]
                    | _ => false
                    end) tr_auth_tls = true.
Proof. vm_compute. reflexivity. Qed.

(* the same bytes in clear text: 504, nobody is asked, not authenticated *)
Example ex_auth_clear :
  forallb (fun x => negb (s_authed (sv (t_st (post_of x)))) &&
                    match ev_of x with [TAuth _ _ _] => false | _ => true end) tr_auth_clear = true /\
  existsb (fun x => match to_replies (snd (fst x)) with [504] => true | _ => false end) tr_auth_clear = true.
Proof. split; vm_compute; reflexivity. Qed.

Definition ex_gate_state : sstate :=
  {| sv := {| s_bannered := true; s_ehlo := Some [97]; s_mail := false; s_rcpt := false;
              s_authed := false; s_encrypted := true |};
     ex := {| x_base := true; x_starttls := false; x_auth := true; x_size := None |};
     ed := {| e_env := None; e_ehlo := Some [97]; e_auth := None; e_esmtp := true; e_tls := true |} |}.

Example ex_gate : gate ex_gate_state {| m_insecure := true; m_attempt := plain_attempt |}.
Proof. unfold gate; cbn. repeat split; reflexivity. Qed.

Example ex_refused_hyp : exists arg n m st,
  mech_named arg n /\ ex_mechs n = Some m /\ m_insecure m = true /\ s_encrypted (sv st) = false.
Proof.
  exists (Some N_PLAIN), N_PLAIN, {| m_insecure := true; m_attempt := plain_attempt |},
         (init_state (ex_cfg false)).
  repeat split. left. reflexivity.
Qed.

Example ex_plain_unicode :   (* zid empty, cid = U+00E9 U+4E2D, secret = U+1F600 *)
  plain_attempt [([], [] ++ 0 :: [195;169;228;184;173] ++ 0 :: [240;159;152;128])] =
  MCreds {| cr_kind := 0; cr_cid := [195;169;228;184;173]; cr_secret := [240;159;152;128];
            cr_zid := [195;169;228;184;173] |}.
Proof. vm_compute. reflexivity. Qed.

Example ex_feed : forall nv st,
  feed nv st (auth_turn nv st {| m_insecure := true; m_attempt := login_attempt |} [])
       (map b64_enc [[117]; [112]]) =
  auth_finish nv st {| cr_kind := 0; cr_cid := [117]; cr_secret := [112]; cr_zid := [117] |}.
Proof.
  intros. rewrite feed_exact.
  - reflexivity.
  - repeat constructor; unfold byte_ok; lia.
Qed.

Example ex_rejected_greeting :   (* "EHLO a" rejected with 550, then AUTH PLAIN: 503, nobody asked *)
  let nv := {| nv_vf := fun k _ => match k with KEhlo => VCode 550 | _ => VKeep end;
               nv_queued := fun _ => VKeep; nv_qf := fun _ => QOk; nv_hs := true; nv_stls := VKeep |} in
  let tr := t_session ex_mechs 40 (ex_cfg true) nv {| w_plain := []; w_tls := [W_EHLO_AUTH] |} in
  map (fun x => to_replies (snd (fst x))) tr = [[220]; [550]; [503]; []] /\
  forallb (fun x => match ev_of x with [TAuth _ _ _] => false | _ => true end) tr = true.
Proof. split; vm_compute; reflexivity. Qed.

(* two AUTH PLAIN attempts in one immediate-TLS session, the first refused (unknown mechanism with an
   initial response), the second in challenge form: the second one is challenged *)
Example ex_second_attempt_challenged :
  let w := (* "EHLO a\r\nAUTH NTLM AHUAcA==\r\nAUTH PLAIN\r\n" *)
      [69;72;76;79;32;97;13;10; 65;85;84;72;32;78;84;76;77;32;65;72;85;65;99;65;61;61;13;10;
       65;85;84;72;32;80;76;65;73;78;13;10] in
  map (fun x => to_replies (snd (fst x)))
      (t_session ex_mechs 60 (ex_cfg true) (keep_env true) {| w_plain := []; w_tls := [w] |})
  = [[220]; [250]; [504]; [334]; []].
Proof. vm_compute. reflexivity. Qed.
