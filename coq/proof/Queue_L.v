(* C01 / C03 core: under the relay contract and fair storage announcements, in every
   reachable state every accepted recipient is delivered, failed for good (with the
   bounce flag of its sender) or still outstanding in storage; a message is removed
   only when all its recipients are settled; a delivery attempt never includes a
   settled recipient.
   The invariant [Linv] says [good] of the descriptor [D s i] of every message i.  An event of
   message i changes the descriptor of i only ([off], [Linv_at]), so [step_L] checks one
   descriptor per event outcome.  The consequences for a state satisfying [Linv], and the closed
   form of the attempt log [step_atts], come last. *)
From Coq Require Import List NArith Bool.
From SV Require Import model.Queue proof.List_lemmas proof.Queue_base.
Import ListNotations.
Open Scope N_scope.

Definition task_of (ts : list task) (i : id) : option task := find (fun t => task_id t =? i) ts.
Definition deliv_l (l : list (id * rcpt)) (i : id) : list rcpt := map snd (filter (fun p => fst p =? i) l).
Definition trip_l (l : list (id * rcpt * bool)) (i : id) : list (rcpt * bool) :=
  map (fun p => (snd (fst p), snd p)) (filter (fun p => fst (fst p) =? i) l).

Definition R (s : state) (i : id) :=
  (mem i (s_active s), mem i (s_qids s), mem i (qids_of (s_queued s)), st_get (s_store s) i,
   deliv_l (g_deliv s) i, trip_l (g_fail s) i, trip_l (g_acc s) i).
Definition D (s : state) (i : id) := (task_of (s_tasks s) i, R s i).

Definition covers_res (all : list rcpt) (res : list rres) : Prop :=
  forall r, In r all -> In r (pick is_ok all res) \/ In r (pick is_perm all res) \/ In r (pick is_temp all res).

Section Good.
  Variables (tk : option task) (act qi qd : bool) (st : option msg)
            (dl : list rcpt) (fl ac : list (rcpt * bool)).

  Definition unsettled_all (l : list rcpt) : Prop :=
    forall r, In r l -> ~ In r dl /\ forall b, ~ In (r, b) fl.
  Definition all_settled : Prop :=
    forall r sf, In (r, sf) ac -> In r dl \/ In (r, sf) fl.
  Definition part_logged (snd : bool) (all : list rcpt) (res : list rres) : Prop :=
    (forall r, In r (pick is_ok all res) -> In r dl) /\
    (forall r, In r (pick is_perm all res) -> In (r, snd) fl).
  Definition phase_ok : Prop :=
    match tk with
    | None => (act = true -> st = None) /\
              (forall m, st = Some m -> unsettled_all (m_rcpts m)) /\
              (st <> None -> qd = true)
    | Some (TEnq _ snd rcpts) =>
        act = false /\ qd = false /\
        exists m, st = Some m /\ m_rcpts m = rcpts /\ m_sender m = snd /\ unsettled_all rcpts
    | Some (TAttempt _ snd rcpts _) =>
        act = true /\ qd = false /\
        exists m, st = Some m /\ m_rcpts m = rcpts /\ m_sender m = snd /\ unsettled_all rcpts
    | Some (TRetry1 _ snd rc None) =>
        act = true /\ qd = false /\
        exists m, st = Some m /\ m_rcpts m = rc /\ m_sender m = snd /\ unsettled_all rc
    | Some (TRetry1 _ snd rc (Some (all, res))) =>
        act = true /\ qd = false /\
        exists m, st = Some m /\ m_rcpts m = all /\ m_sender m = snd /\ rc = pick is_temp all res /\
                  covers_res all res /\ part_logged snd all res /\ unsettled_all (unsettled all res)
    | Some (TRetry2 _ rc None _) =>
        act = true /\ qd = false /\
        exists m, st = Some m /\ m_rcpts m = rc /\ unsettled_all rc
    | Some (TRetry2 _ _ (Some (all, res)) _) | Some (TRetry3 _ all res _) =>
        act = true /\ qd = false /\
        exists m, st = Some m /\ m_rcpts m = all /\ part_logged (m_sender m) all res /\
                  unsettled_all (unsettled all res)
    | Some (TDequeue _ _) =>
        act = true /\ qd = false /\ (forall m, st = Some m -> unsettled_all (m_rcpts m))
    | Some (TRemove _) => act = false /\ qd = false /\ all_settled
    | Some (TPartialRemove _) => act = true /\ qd = false /\ all_settled
    end.

  Record good : Prop := mkGood {
    g_q1 : qd = true -> qi = true /\ act = false;
    g_q2 : qi = true -> qd = true;
    g_sender : forall m, st = Some m -> forall r sf, In (r, sf) ac -> m_sender m = sf;
    g_nodup : forall m, st = Some m -> NoDup (m_rcpts m);
    g_noloss : forall r sf, In (r, sf) ac ->
               In r dl \/ In (r, sf) fl \/ exists m, st = Some m /\ In r (m_rcpts m);
    g_phase : phase_ok
  }.
End Good.

Definition good_at (ot : option task) (s : state) (i : id) : Prop :=
  let '(act, qi, qd, st, dl, fl, ac) := R s i in good ot act qi qd st dl fl ac.

Definition blank : option task * _ := (None, (false, false, false, @None msg, @nil rcpt, @nil (rcpt * bool), @nil (rcpt * bool))).

Record Linv (s : state) : Prop := mkLinv {
  l_good : forall i, good_at (task_of (s_tasks s) i) s i;
  l_fresh : forall i, s_next s <= i -> D s i = blank;
  l_tasks_nodup : NoDup (all_ids (s_tasks s));
  l_queued_nodup : NoDup (qids_of (s_queued s))
}.

Lemma task_of_app : forall a b i, task_of (a ++ b) i = match task_of a i with Some t => Some t | None => task_of b i end.
Proof.
  intros a b i. unfold task_of. induction a as [|x a IH]; cbn; [reflexivity|].
  destruct (task_id x =? i); [reflexivity|exact IH].
Qed.

Lemma task_of_none : forall ts i, task_of ts i = None <-> ~ In i (all_ids ts).
Proof.
  intros ts i. unfold task_of, all_ids. induction ts as [|x ts IH]; cbn; [tauto|].
  destruct (N.eqb_spec (task_id x) i); [split; [discriminate|intro H; exfalso; apply H; left; assumption]|].
  rewrite IH. tauto.
Qed.

Lemma task_of_some : forall ts i t, task_of ts i = Some t -> In t ts /\ task_id t = i.
Proof.
  intros ts i t H. unfold task_of in H. apply find_some in H. destruct H as [H1 H2]. apply N.eqb_eq in H2. tauto.
Qed.

Lemma task_of_elt : forall l1 t l2 j, NoDup (all_ids (l1 ++ t :: l2)) ->
  task_of (l1 ++ t :: l2) j = if task_id t =? j then Some t else task_of (l1 ++ l2) j.
Proof.
  intros l1 t l2 j H. rewrite !task_of_app. unfold task_of at 2. cbn [find]. destruct (N.eqb_spec (task_id t) j) as [<-|]; [|reflexivity].
  unfold all_ids in H. rewrite map_app in H. apply NoDup_remove_2 in H.
  destruct (task_of l1 (task_id t)) eqn:E; [|reflexivity]. apply task_of_some in E. destruct E as [E1 E2].
  elim H. apply in_or_app. left. rewrite <- E2. apply in_map. exact E1.
Qed.

Lemma task_of_gone : forall l1 t l2, NoDup (all_ids (l1 ++ t :: l2)) -> task_of (l1 ++ l2) (task_id t) = None.
Proof.
  intros l1 t l2 H. apply task_of_none. unfold all_ids in *. rewrite map_app in *. exact (NoDup_remove_2 _ _ _ H).
Qed.

Lemma deliv_l_log : forall i rs l j, deliv_l (map (fun r => (i, r)) rs ++ l) j = (if i =? j then rs else []) ++ deliv_l l j.
Proof.
  intros i rs l j. unfold deliv_l. rewrite filter_app, map_app. f_equal.
  induction rs as [|r rs IH]; cbn; [destruct (i =? j); reflexivity|]. destruct (i =? j); cbn; [f_equal|]; exact IH.
Qed.

Lemma trip_l_log : forall i b rs l j,
  trip_l (map (fun r => (i, r, b)) rs ++ l) j = (if i =? j then map (fun r => (r, b)) rs else []) ++ trip_l l j.
Proof.
  intros i b rs l j. unfold trip_l. rewrite filter_app, map_app. f_equal.
  induction rs as [|r rs IH]; cbn; [destruct (i =? j); reflexivity|]. destruct (i =? j); cbn; [f_equal|]; exact IH.
Qed.

Lemma In_deliv_l : forall l i r, In r (deliv_l l i) <-> In (i, r) l.
Proof.
  intros l i r. unfold deliv_l. rewrite in_map_iff. split.
  - intros [[j x] [E Hx]]. cbn in E. subst x. apply filter_In in Hx. destruct Hx as [Hx Hj]. cbn in Hj. apply N.eqb_eq in Hj. subst. exact Hx.
  - intro H. exists (i, r). split; [reflexivity|]. apply filter_In. split; [exact H|cbn; apply N.eqb_refl].
Qed.

Lemma In_trip_l : forall l i r b, In (r, b) (trip_l l i) <-> In (i, r, b) l.
Proof.
  intros l i r b. unfold trip_l. rewrite in_map_iff. split.
  - intros [[[j x] y] [E Hx]]. cbn in E. inversion E; subst. apply filter_In in Hx. destruct Hx as [Hx Hj]. cbn in Hj. apply N.eqb_eq in Hj. subst. exact Hx.
  - intro H. exists (i, r, b). split; [reflexivity|]. apply filter_In. split; [exact H|cbn; apply N.eqb_refl].
Qed.

Lemma mem_qids_insort : forall j ts i q, mem j (qids_of (insort (ts, i) q)) = (j =? i) || mem j (qids_of q).
Proof.
  intros j ts i q. apply (mem_ext j _ (i :: qids_of q)). rewrite In_qids_insort. cbn. split; intros [H|H]; auto.
Qed.

Definition off (i : id) (s s' : state) : Prop := forall j, j <> i -> R s' j = R s j.

Lemma off_refl : forall i s, off i s s.
Proof. intros i s j _. reflexivity. Qed.

(* [R] reads neither the task list nor the attempt log *)
Lemma off_set_tasks : forall i s s1 ts, off i s s1 -> off i s (set_tasks s1 ts).
Proof. intros i s s1 ts Ho. exact Ho. Qed.

Lemma off_log_att : forall i s s1 a, off i s s1 -> off i s (log_att s1 a).
Proof. intros i s s1 a Ho. exact Ho. Qed.

Lemma off_log_deliv : forall i s s1 rs, off i s s1 -> off i s (log_deliv s1 i rs).
Proof.
  intros i s s1 rs Ho j Hj. rewrite <- (Ho j Hj). unfold R. proj. rewrite deliv_l_log.
  destruct (N.eqb_spec i j); [congruence|reflexivity].
Qed.

Lemma off_log_fail : forall i s s1 rs b, off i s s1 -> off i s (log_fail s1 i rs b).
Proof.
  intros i s s1 rs b Ho j Hj. rewrite <- (Ho j Hj). unfold R. proj. rewrite trip_l_log.
  destruct (N.eqb_spec i j); [congruence|reflexivity].
Qed.

Lemma off_q_remove : forall i s s1, off i s s1 -> off i s (q_remove s1 i).
Proof. intros i s s1 Ho j Hj. rewrite <- (Ho j Hj). unfold R. proj. rewrite !mem_del_other by exact Hj. reflexivity. Qed.

Lemma off_del_active : forall i s s1, off i s s1 -> off i s (set_active s1 (del i (s_active s1))).
Proof. intros i s s1 Ho j Hj. rewrite <- (Ho j Hj). unfold R. proj. rewrite mem_del_other by exact Hj. reflexivity. Qed.

Lemma off_cons_active : forall i s s1, off i s s1 -> off i s (set_active s1 (i :: s_active s1)).
Proof. intros i s s1 Ho j Hj. rewrite <- (Ho j Hj). unfold R. proj. rewrite mem_cons_other by exact Hj. reflexivity. Qed.

Lemma off_upd : forall i s s1 f, off i s s1 -> off i s (set_store s1 (st_upd (s_store s) i f)).
Proof. intros i s s1 f Ho j Hj. specialize (Ho j Hj). unfold R in *. proj. rewrite st_get_upd_other by exact Hj. congruence. Qed.

Lemma off_add_queued : forall i s s1 ts, off i s s1 -> off i s (add_queued s1 ts i).
Proof.
  intros i s s1 ts Ho j Hj. rewrite <- (Ho j Hj). destruct (add_queuedP s1 ts i) as [_|_ _]; [reflexivity|].
  unfold R. proj. rewrite mem_qids_insort, mem_cons_other by exact Hj. destruct (N.eqb_spec j i); [contradiction|reflexivity].
Qed.

Lemma good_at_frame : forall s s' j, D s' j = D s j -> good_at (task_of (s_tasks s) j) s j -> good_at (task_of (s_tasks s') j) s' j.
Proof. intros s s' j E G. apply pair_equal_spec in E. destruct E as [E1 E2]. unfold good_at. rewrite E1, E2. exact G. Qed.

Lemma Linv_lt : forall s i, Linv s -> D s i <> blank -> i < s_next s.
Proof. intros s i H Hd. destruct (N.lt_ge_cases i (s_next s)) as [A|A]; [exact A|]. elim Hd. exact (l_fresh s H i A). Qed.

Lemma Linv_task_of : forall s l1 t l2, Linv s -> s_tasks s = l1 ++ t :: l2 -> task_of (s_tasks s) (task_id t) = Some t.
Proof.
  intros s l1 t l2 H E1. pose proof (l_tasks_nodup s H) as Nd. rewrite E1 in Nd |- *.
  rewrite (task_of_elt _ _ _ _ Nd), N.eqb_refl. reflexivity.
Qed.

Lemma Linv_task : forall s l1 t l2, Linv s -> s_tasks s = l1 ++ t :: l2 -> good_at (Some t) s (task_id t).
Proof. intros s l1 t l2 H E1. rewrite <- (Linv_task_of s l1 t l2 H E1). exact (l_good s H (task_id t)). Qed.

Lemma Linv_one : forall s s' i, Linv s -> s_next s <= s_next s' -> i < s_next s' ->
  (forall j, j <> i -> D s' j = D s j) -> good_at (task_of (s_tasks s') i) s' i ->
  NoDup (all_ids (s_tasks s')) -> NoDup (qids_of (s_queued s')) -> Linv s'.
Proof.
  intros s s' i H Hn Hi Hf Hg N1 N2. constructor; [| |exact N1|exact N2]; intro j.
  - destruct (N.eq_dec j i) as [->|E]; [exact Hg|]. exact (good_at_frame s s' j (Hf j E) (l_good s H j)).
  - intro Hj. rewrite Hf; [exact (l_fresh s H j (N.le_trans _ _ _ Hn Hj))|].
    intros ->. exact (N.lt_irrefl _ (N.lt_le_trans _ _ _ Hi Hj)).
Qed.

Lemma Linv_at : forall s s' i l1 t l2 ot,
  Linv s -> s_tasks s = l1 ++ t :: l2 -> task_id t = i ->
  s_tasks s' = match ot with Some x => (l1 ++ l2) ++ [x] | None => l1 ++ l2 end ->
  match ot with Some x => task_id x = i | None => True end ->
  s_next s' = s_next s -> off i s s' -> NoDup (qids_of (s_queued s')) -> good_at ot s' i ->
  Linv s'.
Proof.
  intros s s' i l1 t l2 ot H E1 Ei E' Hid En Ho Nq Hg.
  pose proof (l_tasks_nodup s H) as Nd. rewrite E1 in Nd.
  assert (Hs : forall j, task_of (s_tasks s) j = if i =? j then Some t else task_of (l1 ++ l2) j)
    by (intro j; rewrite E1, <- Ei; apply task_of_elt, Nd).
  pose proof (task_of_gone _ _ _ Nd) as Hgone. rewrite Ei in Hgone.
  assert (Ht : forall j, task_of (s_tasks s') j = if i =? j then ot else task_of (l1 ++ l2) j).
  { intro j. rewrite E'. destruct ot as [x|].
    - rewrite task_of_app. unfold task_of at 2. cbn [find]. rewrite Hid.
      destruct (N.eqb_spec i j) as [<-|]; [rewrite Hgone; reflexivity|destruct (task_of (l1 ++ l2) j); reflexivity].
    - destruct (N.eqb_spec i j) as [<-|]; [exact Hgone|reflexivity]. }
  apply (Linv_one s s' i H).
  - rewrite En. apply N.le_refl.
  - rewrite En. apply (Linv_lt s i H). unfold D. rewrite Hs, N.eqb_refl. discriminate.
  - intros j Hj. unfold D. rewrite (Ho j Hj), Ht, Hs. destruct (N.eqb_spec i j); [congruence|reflexivity].
  - rewrite Ht, N.eqb_refl. exact Hg.
  - rewrite E'. unfold all_ids in *. rewrite map_app in Nd. pose proof (NoDup_remove _ _ _ Nd) as [N1 N2]. rewrite <- map_app in N1, N2.
    destruct ot as [x|]; [|exact N1]. rewrite map_app. cbn [map]. rewrite Hid, <- Ei. apply NoDup_snoc; assumption.
  - exact Nq.
Qed.

Lemma Linv_same : forall s s', Linv s -> (forall j, D s' j = D s j) -> s_next s' = s_next s ->
  all_ids (s_tasks s') = all_ids (s_tasks s) -> qids_of (s_queued s') = qids_of (s_queued s) -> Linv s'.
Proof.
  intros s s' H Hd En Et Eq. constructor.
  - intro j. exact (good_at_frame s s' j (Hd j) (l_good s H j)).
  - intros j Hj. rewrite Hd. apply (l_fresh s H). rewrite <- En. exact Hj.
  - rewrite Et. exact (l_tasks_nodup s H).
  - rewrite Eq. exact (l_queued_nodup s H).
Qed.

Lemma Linv_qids : forall s j, Linv s -> mem j (s_qids s) = mem j (qids_of (s_queued s)).
Proof.
  intros s j H. destruct (l_good s H j) as [q1 q2 _ _ _ _].
  destruct (mem j (s_qids s)); destruct (mem j (qids_of (s_queued s))); try reflexivity; [symmetry; exact (q2 eq_refl)|exact (proj1 (q1 eq_refl))].
Qed.

(* hypotheses on the environment: distinct recipients, relay contract, fair announcements *)
Definition ev_ok (s : state) (e : event) : Prop :=
  match e with
  | EWrite _ rcpts _ => NoDup rcpts
  | ERelay i (OPartial res) =>
      forall snd rcpts n, task_of (s_tasks s) i = Some (TAttempt i snd rcpts n) -> covers_res rcpts res
  | EAnnounce _ i =>
      i < s_next s /\
      match task_of (s_tasks s) i with
      | Some (TEnq _ _ _) | Some (TRemove _) => False    (* not while its enqueue() or its removal is in progress *)
      | _ => True
      end
  | _ => True
  end.

Fixpoint ok_run (es : list event) (s : state) : Prop :=
  match es with
  | [] => True
  | e :: es' => ev_ok s e /\ ok_run es' (step s e)
  end.

Lemma pick_In : forall p rs res r, In r (pick p rs res) -> In r rs.
Proof.
  induction rs as [|x rs IH]; intros res r H; cbn in H; [destruct H|].
  destruct (p _); [destruct H as [H|H]; [left; exact H|]|]; right; exact (IH _ _ H).
Qed.

Lemma pick_nodup : forall p rs res, NoDup rs -> NoDup (pick p rs res).
Proof.
  induction rs as [|x rs IH]; intros res Hn; cbn; [constructor|]. inversion Hn; subst.
  destruct (p _); [constructor; [intro Hi; apply pick_In in Hi; contradiction|]|]; apply IH; assumption.
Qed.

Lemma pick_disjoint : forall p q rs res r, NoDup rs -> (forall x, p x = true -> q x = true -> False) ->
  In r (pick p rs res) -> In r (pick q rs res) -> False.
Proof.
  induction rs as [|x rs IH]; intros res r Hn Hpq Hp Hq; cbn in *; [destruct Hp|].
  inversion Hn as [|? ? Hx Hn']; subst.
  destruct (p _) eqn:Ep; destruct (q _) eqn:Eq; [exact (Hpq _ Ep Eq)| | |exact (IH _ r Hn' Hpq Hp Hq)].
  - destruct Hp as [<-|Hp]; [apply Hx; exact (pick_In _ _ _ _ Hq)|exact (IH _ r Hn' Hpq Hp Hq)].
  - destruct Hq as [<-|Hq]; [apply Hx; exact (pick_In _ _ _ _ Hp)|exact (IH _ r Hn' Hpq Hp Hq)].
Qed.

Lemma pick_cover : forall p q1 q2 rs res r, (forall x, p x || q1 x || q2 x = true) -> In r rs ->
  In r (pick p rs res) \/ In r (pick q1 rs res) \/ In r (pick q2 rs res).
Proof.
  intros p q1 q2 rs res r Hc. revert res. induction rs as [|x rs IH]; intros res H; [destruct H|]. cbn.
  destruct H as [<-|H].
  - specialize (Hc match res with [] => RJunk | y :: _ => y end).
    destruct (p _); [left; left; reflexivity|]. destruct (q1 _); [right; left; left; reflexivity|].
    destruct (q2 _); [right; right; left; reflexivity|discriminate Hc].
  - destruct (IH match res with [] => [] | _ :: t => t end H) as [A|[A|A]];
      [left; destruct (p _)|right; left; destruct (q1 _)|right; right; destruct (q2 _)]; try right; exact A.
Qed.

Lemma not_settled_neg : forall x, not_settled x = negb (is_settled x).
Proof. reflexivity. Qed.

Lemma phase_gone : forall act qd dl fl ac, phase_ok None act qd None dl fl ac.
Proof. intros. split; [reflexivity|]. split; [discriminate|]. intro A. elim A. reflexivity. Qed.

Lemma settled_noloss : forall st dl fl ac, all_settled dl fl ac ->
  forall r sf, In (r, sf) ac -> In r dl \/ In (r, sf) fl \/ exists m : msg, st = Some m /\ In r (m_rcpts m).
Proof. intros st dl fl ac H r sf Hr. destruct (H r sf Hr); auto. Qed.

Lemma L_requeue : forall s i l1 t l2 f when m,
  Linv s -> s_tasks s = l1 ++ t :: l2 -> task_id t = i -> st_get (s_store s) i = Some m ->
  mem i (qids_of (s_queued s)) = false ->
  m_sender (f m) = m_sender m -> NoDup (m_rcpts (f m)) ->
  unsettled_all (deliv_l (g_deliv s) i) (trip_l (g_fail s) i) (m_rcpts (f m)) ->
  (forall r sf, In (r, sf) (trip_l (g_acc s) i) -> In r (m_rcpts m) ->
     In r (m_rcpts (f m)) \/ In r (deliv_l (g_deliv s) i) \/ In (r, sf) (trip_l (g_fail s) i)) ->
  let s1 := set_store (set_tasks s (l1 ++ l2)) (st_upd (s_store s) i f) in
  Linv (add_queued (set_active s1 (del i (s_active s1))) when i).
Proof.
  intros s i l1 t l2 f when m H E1 Ei Pst Pq Hsn Hnd Hun Hcov s1.
  destruct (l_good s H i) as [_ q2 gs _ gl _].
  assert (Pqi : mem i (s_qids s) = false) by (destruct (mem i (s_qids s)); [rewrite (q2 eq_refl) in Pq; discriminate|reflexivity]).
  apply (Linv_at s _ i l1 t l2 None H E1 Ei); rewrite ?aq_tasks, ?aq_next; try reflexivity.
  - apply off_add_queued, off_del_active, off_upd, off_set_tasks, off_refl.
  - rewrite aq_new; [|exact Pqi|apply mem_del_same]. proj. apply qids_insort_nodup; [exact (l_queued_nodup s H)|].
    apply mem_false_In. exact Pq.
  - unfold good_at, R. rewrite aq_new; [|exact Pqi|apply mem_del_same]. subst s1. proj.
    rewrite mem_del_same, mem_qids_insort, st_get_upd_same, Pst. cbn [mem option_map]. rewrite N.eqb_refl. cbn [orb].
    constructor.
    + intros _. split; reflexivity.
    + reflexivity.
    + intros m' Em. injection Em as <-. rewrite Hsn. exact (gs m Pst).
    + intros m' Em. injection Em as <-. exact Hnd.
    + intros r sf Hr. destruct (gl r sf Hr) as [A|[A|[m' [A1 A2]]]]; [left; exact A|right; left; exact A|].
      rewrite Pst in A1. injection A1 as <-. destruct (Hcov r sf Hr A2) as [C|[C|C]]; [|left; exact C|right; left; exact C].
      right. right. eexists. split; [reflexivity|exact C].
    + split; [discriminate|]. split; [|reflexivity]. intros m' Em. injection Em as <-. exact Hun.
Qed.

Lemma good_keeps : forall tk tk' act qi qd m m' dl fl ac,
  good tk act qi qd (Some m) dl fl ac -> m_sender m' = m_sender m -> m_rcpts m' = m_rcpts m ->
  phase_ok tk' act qd (Some m') dl fl ac -> good tk' act qi qd (Some m') dl fl ac.
Proof.
  intros tk tk' act qi qd m m' dl fl ac [q1 q2 gs gn gl _] Hs Hr P. constructor; try assumption.
  - intros x Ex. injection Ex as <-. rewrite Hs. exact (gs m eq_refl).
  - intros x Ex. injection Ex as <-. rewrite Hr. exact (gn m eq_refl).
  - intros r sf Hx. destruct (gl r sf Hx) as [A|[A|[x [A1 A2]]]]; [left; exact A|right; left; exact A|].
    injection A1 as <-. right. right. exists m'. rewrite Hr. auto.
Qed.

Lemma L_requids : forall s, Linv s -> Linv (set_queue s (s_queued s) (qids_of (s_queued s))).
Proof.
  intros s H. apply (Linv_same s _ H); try reflexivity. intro j. unfold D, R. proj. rewrite (Linv_qids s j H). reflexivity.
Qed.

(* the first timetable entry is handed to _dispatch: its message was idle (in the timetable means
   no task and not active), so the read is spawned *)
Lemma L_pop : forall s e q c, Linv s -> s_queued s = e :: q -> Linv (set_queue (dispatch s (snd e) c) q (qids_of q)).
Proof.
  intros s [ts i] q c H Eq. cbn [snd]. pose proof (l_queued_nodup s H) as Nq. rewrite Eq in Nq. change (NoDup (i :: qids_of q)) in Nq. apply NoDup_cons_iff in Nq. destruct Nq as [Ni Nq].
  assert (Hq : forall j, mem j (qids_of (s_queued s)) = (j =? i) || mem j (qids_of q)) by (intro j; rewrite Eq; reflexivity).
  pose proof (l_good s H i) as [q1 _ gs gn gl P]. rewrite Hq, N.eqb_refl in q1. destruct (q1 eq_refl) as [Pqi Pa].
  assert (Htk : task_of (s_tasks s) i = None).
  { destruct (task_of (s_tasks s) i) as [t|]; [|reflexivity]. exfalso. rewrite Hq, N.eqb_refl in P.
    destruct t as [| |? ? ? [[]|]|? ? [[]|] ?| | | |]; destruct P as (_ & A & _); discriminate A. }
  rewrite Htk in P. destruct P as (_ & Pun & _).
  rewrite (dispatch_new _ _ _ Pa). apply (Linv_one s _ i H); proj.
  - apply N.le_refl.
  - apply (Linv_lt s i H). unfold D, R, blank. rewrite Pa, Pqi. discriminate.
  - intros j Hj. unfold D, R. proj. rewrite task_of_app, (Linv_qids s j H), Hq, mem_cons_other by exact Hj.
    unfold task_of at 2. cbn [find task_id]. destruct (N.eqb_spec i j); [congruence|]. destruct (N.eqb_spec j i); [congruence|].
    destruct (task_of (s_tasks s) j); reflexivity.
  - rewrite task_of_app, Htk. unfold task_of. cbn [find task_id]. rewrite N.eqb_refl. unfold good_at, R. proj. cbn [mem]. rewrite N.eqb_refl.
    apply mem_false_In in Ni. rewrite Ni. constructor; try assumption; try discriminate. exact (conj eq_refl (conj eq_refl Pun)).
  - rewrite all_ids_app. apply NoDup_snoc; [exact (l_tasks_nodup s H)|]. apply task_of_none. exact Htk.
  - exact Nq.
Qed.

Lemma Linv_sched : forall s sc w, Linv s -> Linv (set_sched s sc w).
Proof. intros s sc w H. apply (Linv_same s _ H); reflexivity. Qed.

Lemma step_L : forall s e, Linv s -> ev_ok s e -> Linv (step s e).
Proof.
  intros s e H Hok. pose proof (l_queued_nodup s H) as Nq. destruct e; rewrite ?step_flush; cbn [step].
  - (* EWrite: the id handed out occurs nowhere yet *)
    set (n := s_next s). pose proof (l_fresh s H n (N.le_refl _)) as B. injection B as B1 B2 B3 B4 B5 B6 B7 B8.
    apply (Linv_one s _ n H); proj; [apply N.le_add_r|apply N.lt_add_pos_r; reflexivity| | | |].
    + intros j Hj. unfold D, R. proj. rewrite task_of_app, trip_l_log. unfold task_of at 2. cbn [find task_id st_get].
      destruct (N.eqb_spec n j); [congruence|]. destruct (N.eqb_spec j n); [congruence|]. destruct (task_of (s_tasks s) j); reflexivity.
    + rewrite task_of_app, B1. unfold task_of, good_at, R. proj. cbn [find task_id st_get]. rewrite !N.eqb_refl, B2, B3, B4, B6, B7, trip_l_log, N.eqb_refl, B8, app_nil_r.
      constructor; try discriminate.
      * intros m Em r sf Hr. injection Em as <-. apply In_map_pair in Hr. symmetry. exact (proj2 Hr).
      * intros m Em. injection Em as <-. exact Hok.
      * intros r sf Hr. right. right. eexists. split; [reflexivity|]. exact (proj1 (proj1 (In_map_pair _ _ _ _) Hr)).
      * split; [reflexivity|]. split; [reflexivity|]. eexists. repeat split; [intros []|intros b []].
    + rewrite all_ids_app. apply NoDup_snoc; [exact (l_tasks_nodup s H)|]. apply task_of_none. exact B1.
    + exact Nq.
  - (* EEnqDone *)
    destruct (take_taskP (is_enq i) (s_tasks s)) as [|l1 t l2 E1 Hp]; [exact H|].
    destruct t; try discriminate Hp. apply N.eqb_eq in Hp. subst i0.
    destruct (Linv_task s _ _ _ H E1) as [q1 q2 gs gn gl (Pa & Pq & P)]. cbn [task_id] in *.
    rewrite (Pa : mem i (s_active (set_tasks s (l1 ++ l2))) = false).
    apply (Linv_at s _ i l1 _ l2 (Some (TAttempt i snd rcpts 0)) H E1); try reflexivity; try assumption.
    + apply off_log_att, off_set_tasks, off_cons_active, off_set_tasks, off_refl.
    + unfold good_at, R. proj. cbn [mem]. rewrite N.eqb_refl. constructor; try assumption; [rewrite Pq; discriminate|exact (conj eq_refl (conj Pq P))].
  - (* ERelay *)
    destruct (take_taskP (is_attempt i) (s_tasks s)) as [|l1 t l2 E1 Hp]; [exact H|].
    destruct t; try discriminate Hp. apply N.eqb_eq in Hp. subst i0.
    destruct (Linv_task s _ _ _ H E1) as [q1 q2 gs gn gl (Pa & Pq & m & Pst & Prc & Psn & Pun)]. cbn [task_id] in *.
    assert (Htemp : Linv (set_tasks (set_tasks s (l1 ++ l2)) ((l1 ++ l2) ++ [TRetry1 i snd rcpts None]))).
    { (* a transient failure, or an unexpected exception, of the whole message: _retry_later is spawned *)
      apply (Linv_at s _ i l1 _ l2 (Some (TRetry1 i snd rcpts None)) H E1); try reflexivity; try assumption.
      - apply off_set_tasks, off_set_tasks, off_refl.
      - constructor; try assumption. exact (conj Pa (conj Pq (ex_intro _ m (conj Pst (conj Prc (conj Psn Pun)))))). }
    destruct o.
    + (* delivered to all *)
      apply (Linv_at s _ i l1 _ l2 (Some (TRemove i)) H E1); try reflexivity; try assumption.
      * apply off_q_remove, off_log_deliv, off_set_tasks, off_refl.
      * unfold good_at, R. proj. rewrite !mem_del_same, deliv_l_log, N.eqb_refl, Pq.
        assert (Hall : all_settled (rcpts ++ deliv_l (g_deliv s) i) (trip_l (g_fail s) i) (trip_l (g_acc s) i)).
        { intros r sf Hr. destruct (gl r sf Hr) as [A|[A|[m' [A1 A2]]]]; [left; apply in_or_app; right; exact A|right; exact A|].
          left. apply in_or_app. left. congruence. }
        constructor; try assumption; try discriminate; [exact (settled_noloss _ _ _ _ Hall)|repeat split; exact Hall].
    + exact Htemp.
    + (* permanent failure of the whole message *)
      apply (Linv_at s _ i l1 _ l2 (Some (TRemove i)) H E1); try reflexivity; try assumption.
      * apply off_q_remove, off_log_fail, off_set_tasks, off_refl.
      * unfold good_at, R. proj. rewrite !mem_del_same, trip_l_log, N.eqb_refl, Pq.
        assert (Hall : all_settled (deliv_l (g_deliv s) i) (map (fun r => (r, snd)) rcpts ++ trip_l (g_fail s) i) (trip_l (g_acc s) i)).
        { intros r sf Hr. destruct (gl r sf Hr) as [A|[A|[m' [A1 A2]]]]; [left; exact A|right; apply in_or_app; right; exact A|].
          right. apply in_or_app. left. apply In_map_pair. rewrite <- (gs m Pst r sf Hr). split; congruence. }
        constructor; try assumption; try discriminate; [exact (settled_noloss _ _ _ _ Hall)|repeat split; exact Hall].
    + exact Htemp.
    + (* per-recipient results: the delivered and the permanently failed are logged, the others stay outstanding *)
      assert (Hcov : covers_res rcpts res) by (apply (Hok snd rcpts n); exact (Linv_task_of s _ _ _ H E1)).
      assert (Hnd : NoDup rcpts) by (rewrite <- Prc; exact (gn m Pst)).
      set (s2 := log_fail _ _ _ _).
      set (dl' := pick is_ok rcpts res ++ deliv_l (g_deliv s) i).
      set (fl' := map (fun r => (r, snd)) (pick is_perm rcpts res) ++ trip_l (g_fail s) i).
      assert (Hoff : forall ts, off i s (set_tasks s2 ts)) by (intro ts; apply off_set_tasks, off_log_fail, off_log_deliv, off_set_tasks, off_refl).
      assert (Hlog : part_logged dl' fl' snd rcpts res).
      { split; intros r Hr; apply in_or_app; left; [exact Hr|apply In_map_pair; auto]. }
      assert (Huns : unsettled_all dl' fl' (unsettled rcpts res)).
      { intros r Hr. destruct (Pun r (pick_In _ _ _ _ Hr)) as [U1 U2]. split.
        - intro Hx. apply in_app_iff in Hx. destruct Hx as [Hx|Hx]; [|exact (U1 Hx)].
          apply (pick_disjoint not_settled is_ok rcpts res r Hnd); [intros []; discriminate|exact Hr|exact Hx].
        - intros b Hx. apply in_app_iff in Hx. destruct Hx as [Hx|Hx]; [|exact (U2 b Hx)]. apply In_map_pair in Hx.
          apply (pick_disjoint not_settled is_perm rcpts res r Hnd); [intros []; discriminate|exact Hr|exact (proj1 Hx)]. }
      assert (Hloss : forall r sf, In (r, sf) (trip_l (g_acc s) i) -> In r dl' \/ In (r, sf) fl' \/ exists m0, st_get (s_store s) i = Some m0 /\ In r (m_rcpts m0)).
      { intros r sf Hr. destruct (gl r sf Hr) as [A|[A|A]]; [left|right; left|right; right; exact A]; apply in_or_app; right; exact A. }
      destruct (pick is_temp rcpts res) as [|r0 temps] eqn:Et.
      * apply (Linv_at s _ i l1 _ l2 (Some (TPartialRemove i)) H E1); try reflexivity; try assumption; [apply Hoff|].
        unfold good_at, R, s2. proj. rewrite deliv_l_log, trip_l_log, N.eqb_refl. fold dl' fl'.
        assert (Hall : all_settled dl' fl' (trip_l (g_acc s) i)).
        { intros r sf Hr. destruct (Hloss r sf Hr) as [A|[A|[m' [A1 A2]]]]; [left; exact A|right; exact A|].
          assert (m' = m) by congruence. subst m'. rewrite Prc in A2. destruct (Hcov r A2) as [C|[C|C]]; [left; exact (proj1 Hlog r C)| |rewrite Et in C; destruct C].
          right. rewrite <- (gs m Pst r sf Hr), Psn. exact (proj2 Hlog r C). }
        constructor; try assumption. exact (conj Pa (conj Pq Hall)).
      * apply (Linv_at s _ i l1 _ l2 (Some (TRetry1 i snd (r0 :: temps) (Some (rcpts, res)))) H E1); try reflexivity; try assumption; [apply Hoff|].
        unfold good_at, R, s2. proj. rewrite deliv_l_log, trip_l_log, N.eqb_refl. fold dl' fl'.
        constructor; try assumption.
        exact (conj Pa (conj Pq (ex_intro _ m (conj Pst (conj Prc (conj Psn (conj (eq_sym Et) (conj Hcov (conj Hlog Huns))))))))).
  - (* EStep *)
    destruct (take_taskP (is_retry i) (s_tasks s)) as [|l1 t l2 E1 Hp]; [exact H|].
    pose proof (Linv_task s _ _ _ H E1) as G. unfold good_at, R in G.
    assert (Hm : exists m, st_get (s_store s) (task_id t) = Some m).
    { destruct G as [_ _ _ _ _ P]. destruct t as [| |? ? ? [[]|]|? ? [[]|] ?|? ? ? ?| | |]; try discriminate Hp; destruct P as (_ & _ & m & Pst & _); eauto. }
    destruct Hm as [m Pst].
    destruct t as [| |? snd rc dl|? rc dl when|? all res when| | |]; try discriminate Hp; apply N.eqb_eq in Hp; subst i0; cbn [task_id] in *; rewrite Pst in G |- *.
    + (* _retry_later starts: increment_attempts, then backoff *)
      destruct b as [w|].
      * apply (Linv_at s _ i l1 _ l2 (Some (TRetry2 i rc dl (s_clock s + w))) H E1); try reflexivity; try assumption.
        -- apply off_set_tasks, off_upd, off_set_tasks, off_refl.
        -- unfold good_at, R. proj. rewrite st_get_upd_same, Pst. cbn [option_map].
           apply (good_keeps _ _ _ _ _ m _ _ _ _ G); try reflexivity. destruct G as [_ _ _ _ _ P]. destruct dl as [[all res]|].
           ++ destruct P as (Pa & Pq & m' & E & Prc & Psn & _ & _ & Hlog & Pun). injection E as <-.
              refine (conj Pa (conj Pq (ex_intro _ _ (conj eq_refl (conj Prc (conj _ Pun)))))). cbn [m_sender]. rewrite Psn. exact Hlog.
           ++ destruct P as (Pa & Pq & m' & E & Prc & _ & Pun). injection E as <-.
              exact (conj Pa (conj Pq (ex_intro _ _ (conj eq_refl (conj Prc Pun))))).
      * (* too many retries: the transiently failed recipients fail for good, the message is removed *)
        destruct G as [q1 q2 gs gn gl P].
        assert (Pq : mem i (qids_of (s_queued s)) = false) by (destruct dl as [[]|]; exact (proj1 (proj2 P))).
        apply (Linv_at s _ i l1 _ l2 (Some (TRemove i)) H E1); try reflexivity; try assumption.
        -- apply off_q_remove, off_log_fail, off_upd, off_set_tasks, off_refl.
        -- unfold good_at, R. proj. rewrite !mem_del_same, trip_l_log, N.eqb_refl, st_get_upd_same, Pst, Pq. cbn [option_map].
           assert (Hall : all_settled (deliv_l (g_deliv s) i) (map (fun r => (r, snd)) rc ++ trip_l (g_fail s) i) (trip_l (g_acc s) i)).
           { intros r sf Hr. pose proof (gs m eq_refl r sf Hr) as Hsf.
             destruct (gl r sf Hr) as [A|[A|[m' [A1 A2]]]]; [left; exact A|right; apply in_or_app; right; exact A|]. injection A1 as <-.
             destruct dl as [[all res]|].
             - destruct P as (_ & _ & m1 & E & Prc & Psn & Erc & Hcov & (Lok & Lperm) & _). injection E as <-.
               rewrite Prc in A2. rewrite <- Hsf, Psn. destruct (Hcov r A2) as [C|[C|C]]; [left; exact (Lok r C)|right; apply in_or_app; right; exact (Lperm r C)|].
               right. apply in_or_app. left. apply In_map_pair. rewrite Erc. auto.
             - destruct P as (_ & _ & m1 & E & Prc & Psn & _). injection E as <-.
               right. apply in_or_app. left. apply In_map_pair. rewrite <- Prc, <- Hsf, Psn. auto. }
           constructor; try discriminate.
           ++ intros m' Em. injection Em as <-. exact (gs m eq_refl).
           ++ intros m' Em. injection Em as <-. exact (gn m eq_refl).
           ++ exact (settled_noloss _ _ _ _ Hall).
           ++ exact (conj eq_refl (conj eq_refl Hall)).
    + (* set_timestamp *)
      destruct dl as [[all res]|].
      * apply (Linv_at s _ i l1 _ l2 (Some (TRetry3 i all res when)) H E1); try reflexivity; try assumption.
        -- apply off_set_tasks, off_upd, off_set_tasks, off_refl.
        -- unfold good_at, R. proj. rewrite st_get_upd_same, Pst. cbn [option_map].
           apply (good_keeps _ _ _ _ _ m _ _ _ _ G); try reflexivity. destruct G as [_ _ _ _ _ (Pa & Pq & m' & E & P)]. injection E as <-.
           exact (conj Pa (conj Pq (ex_intro _ _ (conj eq_refl P)))).
      * destruct G as [_ _ _ gn _ (_ & Pq & m' & E & Prc & Pun)]. injection E as <-.
        apply (L_requeue s i l1 _ l2 _ when m H E1 eq_refl Pst Pq); cbn [m_sender m_rcpts]; try reflexivity.
        -- exact (gn m eq_refl).
        -- rewrite Prc. exact Pun.
        -- intros r sf _ Hr. left. exact Hr.
    + (* set_recipients_delivered: the outstanding recipients are the unsettled ones *)
      destruct G as [_ _ gs gn _ (_ & Pq & m' & E & Prc & (Lok & Lperm) & Pun)]. injection E as <-.
      apply (L_requeue s i l1 _ l2 _ when m H E1 eq_refl Pst Pq); cbn [m_sender m_rcpts]; try reflexivity; rewrite Prc.
      * apply pick_nodup. rewrite <- Prc. exact (gn m eq_refl).
      * exact Pun.
      * intros r sf Hacc Hr.
        destruct (pick_cover not_settled is_ok is_perm all res r (fun x => match x with ROk | _ => eq_refl end) Hr) as [C|[C|C]];
          [left; exact C|right; left; exact (Lok r C)|right; right].
        rewrite <- (gs m eq_refl r sf Hacc). exact (Lperm r C).
  - (* EGet *)
    destruct (take_taskP (is_dequeue i) (s_tasks s)) as [|l1 t l2 E1 Hp]; [exact H|].
    destruct t; try discriminate Hp. apply N.eqb_eq in Hp. subst i0.
    destruct (Linv_task s _ _ _ H E1) as [q1 q2 gs gn gl (Pa & Pq & Pun)]. cbn [task_id] in *.
    destruct (st_get (s_store s) i) as [m|] eqn:Eg.
    + apply (Linv_at s _ i l1 _ l2 (Some (TAttempt i (m_sender m) (m_rcpts m) (m_attempts m))) H E1); try reflexivity; try assumption.
      * apply off_log_att, off_set_tasks, off_set_tasks, off_refl.
      * unfold good_at, R. proj. rewrite Eg. constructor; try assumption.
        exact (conj Pa (conj Pq (ex_intro _ m (conj eq_refl (conj eq_refl (conj eq_refl (Pun m eq_refl))))))).
    + apply (Linv_at s _ i l1 _ l2 None H E1); try reflexivity; try assumption.
      * apply off_del_active, off_set_tasks, off_refl.
      * unfold good_at, R. proj. rewrite mem_del_same, Eg. constructor; try assumption; try discriminate.
        -- rewrite Pq. discriminate.
        -- exact (phase_gone _ _ _ _ _).
  - (* ERemove *)
    destruct (take_taskP (is_rm i) (s_tasks s)) as [|l1 t l2 E1 Hp]; [exact H|].
    assert (Ei : task_id t = i) by (destruct t; try discriminate Hp; apply N.eqb_eq in Hp; auto).
    pose proof (Linv_task s _ _ _ H E1) as [q1 q2 gs gn gl P]. rewrite Ei in *.
    assert (Hall : all_settled (deliv_l (g_deliv s) i) (trip_l (g_fail s) i) (trip_l (g_acc s) i))
      by (destruct t; try discriminate Hp; exact (proj2 (proj2 P))).
    apply (Linv_at s _ i l1 _ l2 None H E1); try reflexivity; try assumption.
    + intros j Hj. unfold R. proj. rewrite st_get_del_other by exact Hj. reflexivity.
    + unfold good_at, R. proj. rewrite st_get_del_same. constructor; try assumption; try discriminate.
      * exact (settled_noloss _ _ _ _ Hall).
      * exact (phase_gone _ _ _ _ _).
  - (* ETick *)
    apply (tick_inv Linv s H); [intros s' sc; apply Linv_sched|]. intros d r E _.
    exact (dispatch_all_inv Linv _ L_requids (fun s e q => L_pop s e q _) d r s H E).
  - (* EWakeup *) exact (wakeup_inv Linv s H (Linv_sched _ _ _ H)).
  - (* EAdvance *) apply (Linv_same s _ H); reflexivity.
  - (* EAnnounce: by fairness the id is known and neither being enqueued nor being removed; if the
       announcement is not ignored it is idle, hence unsettled in storage *)
    destruct Hok as [Hlt Hfair]. destruct (add_queuedP s ts i) as [|Eqi Ea]; [exact H|].
    destruct (l_good s H i) as [q1 q2 gs gn gl P].
    assert (Pq : mem i (qids_of (s_queued s)) = false) by (rewrite <- (Linv_qids s i H); exact Eqi).
    assert (Htk : task_of (s_tasks s) i = None).
    { destruct (task_of (s_tasks s) i) as [t|]; [|reflexivity]. exfalso.
      destruct t as [| |? ? ? [[]|]|? ? [[]|] ?| | | |]; try exact Hfair; destruct P as (A & _); rewrite A in Ea; discriminate Ea. }
    rewrite Htk in P. destruct P as (_ & Pun & _).
    apply (Linv_one s _ i H); proj.
    + apply N.le_refl.
    + exact Hlt.
    + intros j Hj. unfold D, R. proj. rewrite mem_qids_insort, mem_cons_other by exact Hj. destruct (N.eqb_spec j i); [contradiction|reflexivity].
    + rewrite Htk. unfold good_at, R. proj. rewrite mem_qids_insort, Ea. cbn [mem]. rewrite N.eqb_refl. cbn [orb].
      constructor; try assumption; [split; reflexivity|reflexivity|]. split; [discriminate|]. split; [exact Pun|reflexivity].
    + exact (l_tasks_nodup s H).
    + apply qids_insort_nodup; [exact Nq|]. apply mem_false_In. exact Pq.
  - (* EFlush *)
    apply (dispatch_all_inv Linv _ L_requids (fun s e q => L_pop s e q _) _ []); [exact (Linv_sched _ _ _ H)|]. symmetry. apply app_nil_r.
Qed.

Lemma init_L : Linv init.
Proof.
  constructor; [|reflexivity|constructor|constructor]. intro i. constructor; cbn; try discriminate; try (intros; contradiction).
  exact (phase_gone _ _ _ _ []).
Qed.

Lemma run_L : forall es s, Linv s -> ok_run es s -> Linv (run es s).
Proof.
  induction es as [|e es IH]; intros s H Hok; cbn; [exact H|]. destruct Hok as [Ho Hr].
  apply IH; [apply step_L; assumption|exact Hr].
Qed.

Lemma reach_L : forall es, ok_run es init -> Linv (run es init).
Proof. intros es. exact (run_L es init init_L). Qed.

Lemma Linv_no_loss : forall s i r sf, Linv s -> In (i, r, sf) (g_acc s) ->
  In (i, r) (g_deliv s) \/ In (i, r, sf) (g_fail s) \/ exists m, st_get (s_store s) i = Some m /\ In r (m_rcpts m).
Proof.
  intros s i r sf H Hacc. rewrite <- In_deliv_l, <- In_trip_l. apply (g_noloss _ _ _ _ _ _ _ _ (l_good s H i)), In_trip_l, Hacc.
Qed.

Lemma Linv_idle_queued : forall s i, Linv s ->
  st_get (s_store s) i <> None -> ~ In i (all_ids (s_tasks s)) -> In i (qids_of (s_queued s)).
Proof.
  intros s i H Hst Hnt. pose proof (g_phase _ _ _ _ _ _ _ _ (l_good s H i)) as P.
  apply task_of_none in Hnt. rewrite Hnt in P. apply mem_In. exact (proj2 (proj2 P) Hst).
Qed.

Lemma Linv_removal_settled : forall s i t rest, Linv s -> take_task (is_rm i) (s_tasks s) = Some (t, rest) ->
  forall r sf, In (i, r, sf) (g_acc s) -> In (i, r) (g_deliv s) \/ In (i, r, sf) (g_fail s).
Proof.
  intros s i t rest H T r sf Hacc. apply take_task_spec in T. destruct T as [Hp [l1 [l2 [E1 _]]]].
  pose proof (g_phase _ _ _ _ _ _ _ _ (Linv_task s _ _ _ H E1)) as P.
  destruct t; try discriminate Hp; apply N.eqb_eq in Hp; subst i0; cbn [task_id] in P;
    rewrite <- In_deliv_l, <- In_trip_l; apply (proj2 (proj2 P)), In_trip_l, Hacc.
Qed.

Definition unsettled_in (s : state) (i : id) (r : rcpt) : Prop :=
  ~ In (i, r) (g_deliv s) /\ forall b, ~ In (i, r, b) (g_fail s).

Lemma unsettled_all_in : forall s i l, unsettled_all (deliv_l (g_deliv s) i) (trip_l (g_fail s) i) l ->
  forall r, In r l -> unsettled_in s i r.
Proof.
  intros s i l Hu r Hr. destruct (Hu r Hr) as [U1 U2]. split; [rewrite <- In_deliv_l; exact U1|intro b; rewrite <- In_trip_l; exact (U2 b)].
Qed.

Lemma Linv_enq_unsettled : forall s i snd rcpts rest, Linv s ->
  take_task (is_enq i) (s_tasks s) = Some (TEnq i snd rcpts, rest) -> forall r, In r rcpts -> unsettled_in s i r.
Proof.
  intros s i snd rcpts rest H T. apply take_task_spec in T. destruct T as [_ [l1 [l2 [E1 _]]]].
  destruct (g_phase _ _ _ _ _ _ _ _ (Linv_task s _ _ _ H E1)) as (_ & _ & m & _ & _ & _ & Pun). exact (unsettled_all_in s i rcpts Pun).
Qed.

Lemma Linv_dequeue_unsettled : forall s i c rest m, Linv s ->
  take_task (is_dequeue i) (s_tasks s) = Some (TDequeue i c, rest) -> st_get (s_store s) i = Some m ->
  forall r, In r (m_rcpts m) -> unsettled_in s i r.
Proof.
  intros s i c rest m H T Eg. apply take_task_spec in T. destruct T as [_ [l1 [l2 [E1 _]]]].
  destruct (g_phase _ _ _ _ _ _ _ _ (Linv_task s _ _ _ H E1)) as (_ & _ & Pun). exact (unsettled_all_in s i _ (Pun m Eg)).
Qed.

(* the two lemmas above cover every attempt: the attempt log grows at those two events only *)
Lemma step_atts : forall s e, g_atts (step s e) =
  match e with
  | EEnqDone i =>
      match take_task (is_enq i) (s_tasks s) with
      | Some (TEnq _ _ rcpts, _) => if mem i (s_active s) then g_atts s else mkAtt i rcpts 0 (s_clock s) CEnqueue :: g_atts s
      | _ => g_atts s
      end
  | EGet i =>
      match take_task (is_dequeue i) (s_tasks s), st_get (s_store s) i with
      | Some (TDequeue _ c, _), Some m => mkAtt i (m_rcpts m) (m_attempts m) (s_clock s) c :: g_atts s
      | _, _ => g_atts s
      end
  | _ => g_atts s
  end.
Proof.
  intros s e. destruct e; rewrite ?step_flush; cbn [step]; try reflexivity.
  - destruct (take_task (is_enq i) (s_tasks s)) as [[[] rest]|]; try reflexivity. proj. destruct (mem i (s_active s)); reflexivity.
  - destruct (take_task (is_attempt i) (s_tasks s)) as [[[] rest]|]; try reflexivity.
    destruct o; try reflexivity. destruct (pick is_temp rcpts res); reflexivity.
  - destruct (take_task (is_retry i) (s_tasks s)) as [[t rest]|]; [|reflexivity]. destruct (st_get (s_store s) i); [|reflexivity].
    destruct t as [| |? ? ? ? |? ? [[]|] ?|? ? ? ?| | |]; try reflexivity; [destruct b; reflexivity| |]; rewrite aq_atts; reflexivity.
  - destruct (take_task (is_dequeue i) (s_tasks s)) as [[[] rest]|]; try reflexivity. destruct (st_get (s_store s) i); reflexivity.
  - destruct (take_task (is_rm i) (s_tasks s)) as [[t rest]|]; reflexivity.
  - apply (tick_inv (fun s' => g_atts s' = g_atts s) s eq_refl); [intros s' sc Hs'; exact Hs'|]. intros d r _ _.
    exact (dispatch_all_proj g_atts dispatch_atts _ d s).
  - apply (wakeup_inv (fun s' => g_atts s' = g_atts s)); reflexivity.
  - apply aq_atts.
  - exact (dispatch_all_proj g_atts dispatch_atts _ _ _).
Qed.

Lemma attempts_started_by : forall s e a, In a (g_atts (step s e)) ->
  In a (g_atts s) \/
  (exists i snd rcpts rest, e = EEnqDone i /\ take_task (is_enq i) (s_tasks s) = Some (TEnq i snd rcpts, rest) /\
      a = mkAtt i rcpts 0 (s_clock s) CEnqueue) \/
  (exists i c rest m, e = EGet i /\ take_task (is_dequeue i) (s_tasks s) = Some (TDequeue i c, rest) /\
      st_get (s_store s) i = Some m /\ a = mkAtt i (m_rcpts m) (m_attempts m) (s_clock s) c).
Proof.
  intros s e a Hin. rewrite step_atts in Hin. destruct e; auto.
  - destruct (take_task (is_enq i) (s_tasks s)) as [[t rest]|] eqn:T; auto. pose proof (proj1 (take_task_spec _ _ _ _ T)) as Hp.
    destruct t; auto. apply N.eqb_eq in Hp. subst i0. destruct (mem i (s_active s)); auto.
    destruct Hin as [<-|Hin]; auto. right. left. exists i, snd, rcpts, rest. auto.
  - destruct (take_task (is_dequeue i) (s_tasks s)) as [[t rest]|] eqn:T; auto. pose proof (proj1 (take_task_spec _ _ _ _ T)) as Hp.
    destruct t; auto. apply N.eqb_eq in Hp. subst i0. destruct (st_get (s_store s) i) as [m|] eqn:Eg; auto.
    destruct Hin as [<-|Hin]; auto. right. right. exists i, c, rest, m. auto.
Qed.
