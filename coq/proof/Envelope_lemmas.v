(* Proofs for property C20 over model/Envelope.v.  The boundary search on a block
   of lines none of which is blank or white space only; the class codec
   (parse_block) inverts render on well-formed blocks, so the hypothesis codec_ok
   is satisfiable; parse / flatten / copy / encode_7bit for any codec with
   codec_ok; _msg_generator's two attempts against the spec render_all; sequences
   of operations on one envelope. *)
From Coq Require Import List NArith Bool Lia.
From Coq Require Import ZifyBool.
From SV Require Import lib.Bytes model.Envelope proof.List_lemmas proof.Bytes_lemmas.
Import ListNotations.
Open Scope N_scope.

Definition plainb (b : N) : bool := negb (b =? 10) && negb (b =? 13).
Definition nonws (b : N) : bool := negb (is_ws b).
Definition okline (l : hline) : bool := forallb plainb (fst l) && existsb nonws (fst l).

Lemma pre_nil : forall o, pre [] o = o.
Proof. intros [[m r]|]; reflexivity. Qed.

Lemma pre_pre : forall p q o, pre p (pre q o) = pre (p ++ q) o.
Proof. intros p q [[m r]|]; cbn; [rewrite app_assoc|]; reflexivity. Qed.

Lemma search_cons : forall b s,
  search (b :: s) = match match_here (b :: s) with Some r => Some r | None => pre [b] (search s) end.
Proof. reflexivity. Qed.

Lemma match_tail_okline : forall c rest,
  forallb plainb c = true -> existsb nonws c = true -> match_tail (c ++ rest) = None.
Proof.
  induction c as [|a c IH]; cbn [forallb existsb app match_tail]; intros rest Hp Hn.
  - discriminate.
  - apply andb_prop in Hp as [Ha Hp].
    destruct (a =? 10) eqn:E10.
    + unfold plainb in Ha. rewrite E10 in Ha. discriminate.
    + destruct (is_ws a) eqn:W.
      * unfold nonws in Hn. rewrite W in Hn. cbn in Hn. rewrite (IH rest Hp Hn). reflexivity.
      * reflexivity.
Qed.

Lemma match_here_plain : forall b s, plainb b = true -> match_here (b :: s) = None.
Proof.
  intros b s H. unfold plainb in H. apply andb_prop in H as [H1 H2].
  cbn [match_here]. destruct (b =? 10); [discriminate|]. destruct (b =? 13); [discriminate|]. reflexivity.
Qed.

Lemma search_plain : forall c s, forallb plainb c = true -> search (c ++ s) = pre c (search s).
Proof.
  induction c as [|a c IH]; intros s H.
  - cbn [app]. rewrite pre_nil. reflexivity.
  - cbn [forallb] in H. apply andb_prop in H as [Ha H].
    cbn [app]. rewrite search_cons, (match_here_plain _ _ Ha), (IH s H), pre_pre. reflexivity.
Qed.

Lemma search_eol : forall e rest,
  search (eol e ++ rest) =
  match match_tail rest with
  | Some (m, r) => Some (eol e ++ m, r)
  | None => pre (eol e) (search rest)
  end.
Proof.
  intros [|] rest; cbn [eol app]; rewrite search_cons.
  - change (match_here (13 :: 10 :: rest)) with (pre [13; 10] (match_tail rest)).
    destruct (match_tail rest) as [[m r]|] eqn:T; [reflexivity|].
    (* no match at the CR: the search goes on at the LF, which does not match either *)
    cbn [pre]. rewrite search_cons. change (match_here (10 :: rest)) with (pre [10] (match_tail rest)).
    rewrite T. cbn [pre]. rewrite pre_pre. reflexivity.
  - change (match_here (10 :: rest)) with (pre [10] (match_tail rest)).
    destruct (match_tail rest) as [[m r]|]; reflexivity.
Qed.

Lemma match_tail_blank : forall blank B, blank_ok blank -> match_tail (blank ++ B) = Some (blank, B).
Proof. intros blank B [->| ->]; reflexivity. Qed.

Lemma render_lines_cons : forall l ls, render_lines (l :: ls) = fst l ++ eol (snd l) ++ render_lines ls.
Proof. intros. unfold render_lines, render_line. cbn [map concat]. rewrite <- app_assoc. reflexivity. Qed.

Lemma okline_inv l : okline l = true -> forallb plainb (fst l) = true /\ existsb nonws (fst l) = true.
Proof. apply andb_prop. Qed.

Lemma match_tail_block ls blank B : forallb okline ls = true -> blank_ok blank ->
  match_tail (render_lines ls ++ blank ++ B) = match ls with [] => Some (blank, B) | _ :: _ => None end.
Proof.
  intros Hok Hb. destruct ls as [|l ls]; [exact (match_tail_blank blank B Hb)|].
  cbn [forallb] in Hok. apply andb_prop in Hok as [Hl _]. destruct (okline_inv l Hl) as [Hp Hn].
  rewrite render_lines_cons, <- app_assoc. apply match_tail_okline; assumption.
Qed.

(* the boundary-search lemma: in a block of lines each of which has a byte that
   is not white space, followed by a blank line, the first match of
   \r?\n\s*?\n is the end of the last line plus the blank line *)
Lemma search_block : forall ls blank B,
  ls <> [] -> forallb okline ls = true -> blank_ok blank ->
  search (render_lines ls ++ blank ++ B) = Some (render_lines ls ++ blank, B).
Proof.
  induction ls as [|l ls IH]; intros blank B Hne Hok Hb; [congruence|].
  cbn [forallb] in Hok. apply andb_prop in Hok as [Hl Hok].
  rewrite render_lines_cons, <- !app_assoc.
  rewrite (search_plain _ _ (proj1 (okline_inv l Hl))), search_eol, (match_tail_block ls blank B Hok Hb).
  destruct ls as [|l2 ls']; [reflexivity|].
  rewrite IH by (discriminate || assumption). cbn [pre]. rewrite <- ?app_assoc. reflexivity.
Qed.

Lemma name_char_plain : forall b, name_char b = true -> plainb b = true /\ nonws b = true /\ is_blank b = false /\ (b =? 58) = false.
Proof. intros b. unfold name_char, plainb, nonws, is_ws, is_blank. lia. Qed.

Lemma val_char_plain : forall b, val_char b = true -> plainb b = true.
Proof. intros b. unfold val_char, plainb. lia. Qed.

Lemma val_char_nonws : forall b, val_char b = true -> is_blank b = false -> nonws b = true.
Proof. intros b. unfold val_char, nonws, is_ws, is_blank. lia. Qed.

Lemma exists_nonblank_nonws : forall c,
  forallb val_char c = true -> existsb (fun b => negb (is_blank b)) c = true -> existsb nonws c = true.
Proof.
  induction c as [|a c IH]; cbn; [discriminate|].
  intros Hv He. apply andb_prop in Hv as [Ha Hv].
  destruct (is_blank a) eqn:Bl; cbn in He.
  - rewrite (IH Hv He). apply orb_true_r.
  - rewrite (val_char_nonws _ Ha Bl). reflexivity.
Qed.

Lemma xwf_cont_okline : forall l, xwf_cont l = true -> okline l = true.
Proof.
  intros l H. unfold xwf_cont in H.
  apply andb_prop in H as [H He]. apply andb_prop in H as [_ Hv].
  unfold okline. rewrite (forallb_impl _ _ _ val_char_plain Hv), (exists_nonblank_nonws _ Hv He). reflexivity.
Qed.

Lemma xwf_field_inv : forall f, xwf_field f = true ->
  f_name f <> [] /\ forallb name_char (f_name f) = true /\ forallb val_char (f_val f) = true
  /\ starts_blank (f_val f) = false /\ forallb xwf_cont (f_cont f) = true.
Proof.
  intros f. unfold xwf_field. rewrite !andb_true_iff, !negb_true_iff.
  intros ((((H1 & H2) & H3) & H4) & H5). repeat split; try assumption.
  destruct (f_name f); discriminate.
Qed.

Lemma first_line_okline : forall f, xwf_field f = true -> okline (first_line f, f_eol f) = true.
Proof.
  intros f H. destruct (xwf_field_inv f H) as (Hne & Hn & Hv & _ & _).
  unfold okline, first_line. cbn [fst]. apply andb_true_intro. split.
  - rewrite !forallb_app. rewrite (forallb_impl _ _ _ (fun b Hb => proj1 (name_char_plain b Hb)) Hn).
    rewrite (forallb_impl _ _ _ val_char_plain Hv). reflexivity.
  - destruct (f_name f) as [|a n]; [congruence|]. cbn [forallb] in Hn. apply andb_prop in Hn as [Ha _].
    cbn [app existsb]. destruct (name_char_plain a Ha) as (_ & Hw & _). rewrite Hw. reflexivity.
Qed.

Lemma forallb_okline_app : forall a b, forallb okline (a ++ b) = forallb okline a && forallb okline b.
Proof. intros. apply forallb_app. Qed.

Lemma block_lines_ok : forall fs, forallb xwf_field fs = true -> forallb okline (block_lines fs) = true.
Proof.
  induction fs as [|f fs IH]; cbn [forallb block_lines flat_map]; [reflexivity|].
  intros H. apply andb_prop in H as [Hf Hfs].
  change (flat_map field_lines fs) with (block_lines fs).
  rewrite forallb_okline_app, (IH Hfs), andb_true_r.
  unfold field_lines. cbn [forallb]. rewrite (first_line_okline f Hf). cbn [andb].
  destruct (xwf_field_inv f Hf) as (_ & _ & _ & _ & Hc). exact (forallb_impl _ _ _ xwf_cont_okline Hc).
Qed.

Lemma block_inv (p : field -> bool) fs : negb (null fs) && forallb p fs = true -> fs <> [] /\ forallb p fs = true.
Proof. intros H. apply andb_prop in H as [H1 H2]. split; [|exact H2]. destruct fs; discriminate. Qed.

Lemma block_lines_ne : forall fs, fs <> [] -> block_lines fs <> [].
Proof. intros [|f fs] H; [congruence|]. cbn. discriminate. Qed.

Lemma wf_x_cont : forall l, wf_cont l = true -> xwf_cont l = true.
Proof. intros l H. unfold wf_cont in H. apply andb_prop in H as [H _]. exact H. Qed.

Lemma wf_x_field : forall f, wf_field f = true -> xwf_field f = true.
Proof.
  intros f H. unfold wf_field in H. unfold xwf_field.
  apply andb_prop in H as [H H6]. apply andb_prop in H as [H _]. rewrite H.
  exact (forallb_impl _ _ _ wf_x_cont H6).
Qed.

Lemma wf_x_all : forall fs, forallb wf_field fs = true -> forallb xwf_field fs = true.
Proof. intros fs. apply forallb_impl, wf_x_field. Qed.

Lemma wf_x_block : forall fs, wf_block fs = true -> xwf_block fs = true.
Proof.
  intros fs H. destruct (block_inv _ fs H) as [Hne Hall]. unfold xwf_block.
  rewrite (wf_x_all fs Hall). destruct fs; [congruence|reflexivity].
Qed.

Lemma search_xwf : forall fs blank B,
  xwf_block fs = true -> blank_ok blank ->
  search (render fs ++ blank ++ B) = Some (render fs ++ blank, B).
Proof.
  intros fs blank B Hwf Hb. destruct (block_inv _ fs Hwf) as [Hne Hall].
  unfold render. apply search_block; auto using block_lines_ne, block_lines_ok.
Qed.

Lemma search_wf : forall fs blank B,
  wf_block fs = true -> blank_ok blank ->
  search (render fs ++ blank ++ B) = Some (render fs ++ blank, B).
Proof. intros fs blank B Hwf Hb. exact (search_xwf fs blank B (wf_x_block fs Hwf) Hb). Qed.

Lemma crlf_field_idem : forall f, crlf_field (crlf_field f) = crlf_field f.
Proof.
  intros f. unfold crlf_field. cbn. f_equal. rewrite map_map. apply map_ext. intros [c e]. reflexivity.
Qed.

Lemma hnorm_fields_idem : forall fs, hnorm_fields (hnorm_fields fs) = hnorm_fields fs.
Proof. intros fs. unfold hnorm_fields. rewrite map_map. apply map_ext. apply crlf_field_idem. Qed.

Lemma gen_fields_crlf : forall fs, gen_fields (hnorm_fields fs) = gen_fields fs.
Proof. intros. unfold gen_fields. rewrite hnorm_fields_idem. reflexivity. Qed.

Lemma wf_crlf_field : forall f, wf_field f = true -> wf_field (crlf_field f) = true.
Proof.
  intros f H. unfold wf_field in *. unfold crlf_field, first_line in *. cbn [f_name f_val f_cont f_eol] in *.
  apply andb_prop in H as [H H6]. rewrite H, forallb_map. exact H6.
Qed.

Lemma wf_hnorm_fields : forall fs, wf_block fs = true -> wf_block (hnorm_fields fs) = true.
Proof.
  intros fs H. destruct (block_inv _ fs H) as [Hne Hall]. unfold wf_block.
  unfold hnorm_fields. rewrite forallb_map, (forallb_impl _ _ _ wf_crlf_field Hall).
  destruct fs; [congruence|reflexivity].
Qed.

Definition raw_line (l : hline) : bytes := fst l ++ (if snd l then [13] else []).

Lemma render_lines_unraw ls : render_lines ls = unraw (map raw_line ls).
Proof.
  unfold render_lines, unraw. rewrite map_map. f_equal. apply map_ext.
  intros [c [|]]; unfold render_line, raw_line; cbn [fst snd eol]; rewrite <- app_assoc; reflexivity.
Qed.

Lemma raw_line_nolf l : forallb plainb (fst l) = true -> nolf (raw_line l).
Proof.
  destruct l as [c e]. cbn [fst]. intros H. apply nolf_app. split.
  - apply nolfb_iff. revert H. apply forallb_impl. intros b Hb. exact (proj1 (andb_prop _ _ Hb)).
  - destruct e; repeat constructor. discriminate.
Qed.

Lemma split_lf_render : forall ls,
  Forall (fun l => forallb plainb (fst l) = true) ls ->
  split_lf (render_lines ls) = (map raw_line ls, []).
Proof.
  intros ls H. rewrite render_lines_unraw, <- (app_nil_r (unraw _)).
  apply split_lf_unraw; [|constructor]. apply Forall_map. revert H. apply Forall_impl, raw_line_nolf.
Qed.

Lemma ends_cr_snoc : forall c x, ends_cr (c ++ [x]) = (x =? 13).
Proof.
  induction c as [|a c IH]; intros x; [reflexivity|].
  cbn [app]. specialize (IH x). destruct c; cbn [app] in *; [reflexivity|exact IH].
Qed.

Lemma ends_cr_plain : forall c, forallb plainb c = true -> ends_cr c = false.
Proof.
  induction c as [|a c IH]; intros H; [reflexivity|].
  cbn [forallb] in H. apply andb_prop in H as [Ha H].
  destruct c; [|exact (IH H)]. cbn. unfold plainb in Ha. lia.
Qed.

Lemma cr_split_raw : forall l, forallb plainb (fst l) = true -> cr_split (raw_line l) = l.
Proof.
  intros [c [|]] H; unfold raw_line, cr_split; cbn [fst snd] in *.
  - rewrite ends_cr_snoc. change (13 =? 13) with true. cbv iota. rewrite strip_cr_snoc. reflexivity.
  - rewrite app_nil_r, (ends_cr_plain _ H). reflexivity.
Qed.

Lemma lines_of_render : forall ls,
  Forall (fun l => forallb plainb (fst l) = true) ls -> lines_of (render_lines ls) = Some ls.
Proof.
  intros ls H. unfold lines_of. rewrite (split_lf_render ls H). f_equal.
  induction H as [|l ls Hl Hls IH]; cbn [map]; [reflexivity|].
  rewrite (cr_split_raw l Hl), IH. reflexivity.
Qed.

Lemma split_colon_name : forall n r,
  forallb name_char n = true -> split_colon (n ++ 58 :: r) = Some (n, r).
Proof.
  induction n as [|a n IH]; intros r H.
  - reflexivity.
  - cbn [forallb] in H. apply andb_prop in H as [Ha H]. cbn [app split_colon].
    destruct (name_char_plain a Ha) as (_ & _ & _ & E). rewrite E, (IH r H). reflexivity.
Qed.

Lemma group_conts : forall conts rest pend fs,
  forallb xwf_cont conts = true -> group rest = Some (pend, fs) ->
  group (conts ++ rest) = Some (conts ++ pend, fs).
Proof.
  induction conts as [|[c e] conts IH]; intros rest pend fs H G.
  - exact G.
  - cbn [forallb] in H. apply andb_prop in H as [Hc H].
    cbn [app group]. rewrite (IH rest pend fs H G).
    unfold xwf_cont in Hc. cbn [fst] in Hc.
    apply andb_prop in Hc as [Hc _]. apply andb_prop in Hc as [Hs _].
    rewrite Hs. destruct c; [discriminate|]. reflexivity.
Qed.

Definition tail_ok (t : list hline) : Prop := t = [] \/ exists e, t = [([], e)].

Lemma group_fields : forall fs t,
  forallb xwf_field fs = true -> tail_ok t -> group (block_lines fs ++ t) = Some ([], fs).
Proof.
  induction fs as [|f fs IH]; intros t H Ht.
  - cbn [block_lines flat_map app]. destruct Ht as [->|[e ->]]; reflexivity.
  - cbn [forallb] in H. apply andb_prop in H as [Hf H].
    destruct (xwf_field_inv f Hf) as (Hne & Hn & Hv & Hvs & Hc).
    cbn [block_lines flat_map]. change (flat_map field_lines fs) with (block_lines fs).
    unfold field_lines at 1. cbn [app]. rewrite <- app_assoc. cbn [group].
    rewrite (group_conts _ _ _ _ Hc (IH t H Ht)). rewrite app_nil_r.
    unfold first_line.
    destruct (f_name f) as [|a n] eqn:En; [congruence|].
    cbn [app null andb]. assert (Hn' := Hn). cbn [forallb] in Hn'. apply andb_prop in Hn' as [Ha _].
    destruct (name_char_plain a Ha) as (_ & _ & Hbl & _).
    cbn [starts_blank]. rewrite Hbl.
    unfold parse_first. change (a :: n ++ 58 :: 32 :: f_val f) with ((a :: n) ++ 58 :: 32 :: f_val f).
    rewrite (split_colon_name _ _ Hn). change (32 =? 32) with true. cbv iota.
    rewrite <- En. destruct f; reflexivity.
Qed.

Definition blank_opt (blank : bytes) : Prop := blank = [] \/ blank_ok blank.

Lemma block_lines_plain : forall fs,
  forallb xwf_field fs = true -> Forall (fun l => forallb plainb (fst l) = true) (block_lines fs).
Proof.
  intros fs H. apply block_lines_ok in H. apply Forall_forall. intros l Hl.
  rewrite forallb_forall in H. apply okline_inv, H, Hl.
Qed.

Lemma render_lines_app : forall a b, render_lines (a ++ b) = render_lines a ++ render_lines b.
Proof. intros. unfold render_lines. rewrite map_app, concat_app. reflexivity. Qed.

Lemma lines_group_render : forall fs blank,
  xwf_block fs = true -> blank_opt blank ->
  exists ls, lines_of (render fs ++ blank) = Some ls /\ group ls = Some ([], fs).
Proof.
  intros fs blank Hwf Hb. destruct (block_inv _ fs Hwf) as [_ Hall].
  assert (E : exists t, tail_ok t /\ blank = render_lines t).
  { destruct Hb as [->|[->| ->]]; [exists []|exists [([], false)]|exists [([], true)]];
      (split; [|reflexivity]); [left|right; eexists|right; eexists]; reflexivity. }
  destruct E as (t & Ht & ->). unfold render. rewrite <- render_lines_app. exists (block_lines fs ++ t). split.
  - apply lines_of_render, Forall_app. split; [apply block_lines_plain, Hall|].
    destruct Ht as [->|[e ->]]; repeat constructor.
  - exact (group_fields fs t Hall Ht).
Qed.

Lemma parse_block_render : forall fs blank,
  wf_block fs = true -> blank_opt blank -> parse_block (render fs ++ blank) = Some fs.
Proof.
  intros fs blank Hwf Hb. destruct (lines_group_render fs blank (wf_x_block fs Hwf) Hb) as (ls & H1 & H2).
  unfold parse_block. rewrite H1, H2, Hwf. reflexivity.
Qed.

Lemma parse_block_x_render : forall fs blank,
  xwf_block fs = true -> blank_opt blank -> parse_block_x (render fs ++ blank) = Some fs.
Proof.
  intros fs blank Hwf Hb. destruct (lines_group_render fs blank Hwf Hb) as (ls & H1 & H2).
  unfold parse_block_x. rewrite H1, H2, Hwf. reflexivity.
Qed.

Lemma codec_c_ok : codec_ok hparse_c hgen_c.
Proof.
  intros fs blank Hwf Hb. unfold hparse_c. cbn [fst snd]. split; [reflexivity|].
  rewrite (parse_block_render fs blank Hwf (or_intror Hb)). reflexivity.
Qed.

Lemma crlf_blank_ok : blank_ok CRLF.
Proof. right. reflexivity. Qed.

Lemma ascii_8bit : forall b, forallb is_ascii b = negb (has_8bit b).
Proof.
  induction b as [|x b IH]; [reflexivity|]. unfold has_8bit in *. cbn [forallb existsb].
  rewrite IH. unfold is_ascii. destruct (existsb _ b); lia.
Qed.

(* encode_7bit tests the message for ASCII; the results speak of has_8bit *)
Lemma if_ascii_8bit {A} b (x y : A) : (if forallb is_ascii b then x else y) = if has_8bit b then y else x.
Proof. rewrite ascii_8bit. destruct (has_8bit b); reflexivity. Qed.

Section CodecFacts.
  Variable hdr : Type.
  Variable hparse : bytes -> hdr * option bytes.
  Variable hgen : hdr -> bytes.
  Hypothesis Hcodec : codec_ok hparse hgen.

  Notation parse := (parse hdr hparse).
  Notation flatten := (flatten hdr hgen).

  Lemma parse_wf : forall fs blank B s r,
    wf_block fs = true -> blank_ok blank ->
    let e := parse s r (render fs ++ blank ++ B) in
    e_sender e = s /\ e_rcpts e = r /\ hgen (e_headers e) = gen_fields fs /\ e_message e = B.
  Proof.
    intros fs blank B s r Hwf Hb. unfold Envelope.parse.
    rewrite (search_wf fs blank B Hwf Hb).
    destruct (Hcodec fs blank Hwf Hb) as [H1 H2].
    destruct (hparse (render fs ++ blank)) as [h extra]. cbn [fst snd] in *. subst extra.
    cbn. auto.
  Qed.

  Lemma body_exact : forall fs blank B s r,
    wf_block fs = true -> blank_ok blank ->
    flatten (parse s r (render fs ++ blank ++ B)) = (render (hnorm_fields fs) ++ CRLF, B).
  Proof.
    intros fs blank B s r Hwf Hb.
    destruct (parse_wf fs blank B s r Hwf Hb) as (_ & _ & H3 & H4).
    unfold Envelope.flatten. rewrite H3, H4. reflexivity.
  Qed.

  (* what flatten() gives, in front of any body, is such a message: fields in CRLF form, a CRLF blank line *)
  Lemma parse_gen : forall fs B s r, wf_block fs = true ->
    let e := parse s r (gen_fields fs ++ B) in
    e_sender e = s /\ e_rcpts e = r /\ flatten e = (gen_fields fs, B).
  Proof.
    intros fs B s r Hwf. unfold gen_fields at 1. rewrite <- app_assoc.
    destruct (parse_wf (hnorm_fields fs) CRLF B s r (wf_hnorm_fields fs Hwf) crlf_blank_ok) as (H1 & H2 & H3 & H4).
    rewrite gen_fields_crlf in H3. cbv zeta. unfold Envelope.flatten. rewrite H3, H4. auto.
  Qed.

  Lemma fixed_point : forall fs blank B s r,
    wf_block fs = true -> blank_ok blank ->
    let e1 := parse s r (render fs ++ blank ++ B) in
    let e2 := parse s r (join (flatten e1)) in
    flatten e2 = flatten e1 /\ parse s r (join (flatten e2)) = e2.
  Proof.
    intros fs blank B s r Hwf Hb e1 e2.
    assert (F2 : flatten e2 = flatten e1).
    { unfold e2, e1. rewrite (body_exact fs blank B s r Hwf Hb). exact (proj2 (proj2 (parse_gen fs B s r Hwf))). }
    split; [exact F2|]. rewrite F2. reflexivity.
  Qed.

  Lemma copy_pickle : forall fs blank B s r nr,
    wf_block fs = true -> blank_ok blank ->
    let e := parse s r (render fs ++ blank ++ B) in
    flatten (copy hdr (pickled hdr e) nr) = (render (hnorm_fields fs) ++ CRLF, B)
    /\ e_sender (copy hdr (pickled hdr e) nr) = s
    /\ e_rcpts (copy hdr (pickled hdr e) nr) = (if null nr then r else nr).
  Proof.
    intros fs blank B s r nr Hwf Hb e.
    destruct (parse_wf fs blank B s r Hwf Hb) as (H1 & H2 & H3 & H4). fold e in H1, H2, H3, H4.
    unfold pickled. destruct nr as [|x nr]; cbn [copy null]; unfold Envelope.flatten; cbn [e_headers e_message e_sender e_rcpts];
      rewrite ?H1, ?H2, ?H3, ?H4; auto.
  Qed.

  Lemma encode_7bit_eq : forall recode (e : envelope hdr),
    encode_7bit hdr hparse hgen recode e =
    if has_8bit (e_message e) then
      match recode with
      | None => UnicodeErr
      | Some rc => Ok7 (parse (e_sender e) (e_rcpts e) (rc (join (flatten e))))
      end
    else Ok7 e.
  Proof. intros recode e. apply if_ascii_8bit. Qed.

  Section Encoder.
    (* email's MIME re-encoding of header_data ++ message with an encoder from
       email.encoders, on single-part messages; encb = the encoder's output as the
       generator writes it; cte = the value it stores in Content-Transfer-Encoding *)
    Variable recode : bytes -> bytes.
    Variable encb decb text_of : bytes -> bytes.
    Variable cte : bytes.
    Variable singlepart : list field -> Prop.
    Hypothesis Hcte : wf_field (cte_field cte) = true.
    Hypothesis Hrecode : forall fs B, wf_block fs = true -> singlepart fs ->
      recode (gen_fields fs ++ B) = gen_fields (set_cte cte fs) ++ encb B.
    Hypothesis Henc_ascii : forall B, has_8bit (encb B) = false.
    Hypothesis Henc_dec : forall B, decb (encb B) = text_of B.

    Lemma wf_set_cte : forall fs, wf_block fs = true -> wf_block (set_cte cte fs) = true.
    Proof.
      intros fs H. destruct (block_inv _ fs H) as [_ Hall]. unfold wf_block, set_cte.
      apply andb_true_intro. split.
      - destruct (filter _ fs); reflexivity.
      - rewrite forallb_app. cbn [forallb]. rewrite Hcte, andb_true_r.
        rewrite forallb_forall in *. intros f Hf. apply Hall. apply filter_In in Hf. apply Hf.
    Qed.

    Lemma seven_ascii : forall fs blank B s r,
      wf_block fs = true -> singlepart fs -> blank_ok blank ->
      let e := parse s r (render fs ++ blank ++ B) in
      exists e', encode_7bit hdr hparse hgen (Some recode) e = Ok7 e'
        /\ e_sender e' = s /\ e_rcpts e' = r
        /\ (has_8bit B = false -> e' = e)
        /\ (has_8bit B = true ->
              flatten e' = (gen_fields (set_cte cte fs), encb B)
              /\ has_8bit (e_message e') = false
              /\ decb (e_message e') = text_of B).
    Proof.
      intros fs blank B s r Hwf Hsp Hb e.
      destruct (parse_wf fs blank B s r Hwf Hb) as (H1 & H2 & H3 & H4). fold e in H1, H2, H3, H4.
      rewrite encode_7bit_eq, H4.
      destruct (has_8bit B) eqn:E8.
      - eexists. split; [reflexivity|].
        unfold Envelope.join, Envelope.flatten. cbn [fst snd]. rewrite H1, H2, H3, H4.
        rewrite (Hrecode fs B Hwf Hsp).
        destruct (parse_gen (set_cte cte fs) (encb B) s r (wf_set_cte fs Hwf)) as (G1 & G2 & G3).
        split; [exact G1|]. split; [exact G2|]. split; [intros Hx; discriminate|].
        intros _. split; [exact G3|]. rewrite (f_equal snd G3 : e_message _ = encb B).
        split; [apply Henc_ascii|apply Henc_dec].
      - eexists. split; [reflexivity|]. split; [exact H1|]. split; [exact H2|].
        split; [reflexivity|]. intros Hx; discriminate.
    Qed.
  End Encoder.
End CodecFacts.

(* "Subject: h\195\169\n\tfolded \r\nX: 1\nX: 2\r\n" : folded, 8-bit, duplicate name, LF and CRLF *)
Definition ex_fields : list field :=
  [ mkfield [83;117;98;106;101;99;116] [104;195;169] false [([9;102;111;108;100;101;100;32], true)];
    mkfield [88] [49] false [];
    mkfield [88] [50] true [] ].
Definition ex_body : bytes := [10; 13; 10; 46; 13; 10; 0; 13; 255].  (* leading blank lines, dot line, NUL, lone CR, 8-bit *)

Example ex_wf : wf_block ex_fields = true.
Proof. reflexivity. Qed.

Example ex_body_exact :
  flatten _ hgen_c (parse _ hparse_c [] [] (render ex_fields ++ [10] ++ ex_body))
  = (render (hnorm_fields ex_fields) ++ CRLF, ex_body).
Proof. vm_compute. reflexivity. Qed.

Example ex_body_exact_by_theorem :
  flatten _ hgen_c (parse _ hparse_c [] [] (render ex_fields ++ [10] ++ ex_body))
  = (render (hnorm_fields ex_fields) ++ CRLF, ex_body).
Proof. apply (body_exact _ _ _ codec_c_ok); [reflexivity|left; reflexivity]. Qed.

Example ex_8bit : has_8bit ex_body = true.
Proof. reflexivity. Qed.

Lemma recode_c_ok : forall cte encb fs B,
  wf_block fs = true -> recode_c cte encb (gen_fields fs ++ B) = gen_fields (set_cte cte fs) ++ encb B.
Proof.
  intros cte encb fs B Hwf. unfold recode_c, gen_fields at 1. rewrite <- app_assoc.
  rewrite (search_wf (hnorm_fields fs) CRLF B (wf_hnorm_fields fs Hwf) crlf_blank_ok).
  rewrite (parse_block_render (hnorm_fields fs) CRLF (wf_hnorm_fields fs Hwf) (or_intror crlf_blank_ok)).
  unfold gen_fields. rewrite <- app_assoc.
  f_equal. f_equal.
  (* set_cte commutes with hnorm_fields up to hnorm *)
  unfold set_cte, hnorm_fields. rewrite !map_app. f_equal.
  clear Hwf. induction fs as [|f fs IH]; [reflexivity|]. cbn [map filter].
  change (is_cte (crlf_field f)) with (is_cte f).
  destruct (negb (is_cte f)); cbn [map]; rewrite IH; [rewrite crlf_field_idem|]; reflexivity.
Qed.

Example ex_cte_wf : wf_field (cte_field [98;97;115;101;54;52]) = true.   (* "base64" *)
Proof. reflexivity. Qed.

(* the hypotheses of seven_ascii are satisfiable together: class codec, recode_c,
   a (toy) body encoder with ASCII output *)
Definition toy_enc (b : bytes) : bytes := map (fun x => x mod 128) b.

Lemma toy_enc_ascii : forall B, has_8bit (toy_enc B) = false.
Proof.
  induction B as [|x B IH]; [reflexivity|]. unfold has_8bit, toy_enc in *. cbn [map existsb].
  rewrite IH. assert (x mod 128 < 128) by (apply N.mod_lt; discriminate). lia.
Qed.

Example ex_seven_ascii :
  let base64 := [98;97;115;101;54;52] in
  let e := parse _ hparse_c [1] [[2]] (render ex_fields ++ [10] ++ ex_body) in
  exists e', encode_7bit _ hparse_c hgen_c (Some (recode_c base64 toy_enc)) e = Ok7 e'
    /\ flatten _ hgen_c e' = (gen_fields (set_cte base64 ex_fields), toy_enc ex_body)
    /\ has_8bit (e_message e') = false.
Proof.
  intros base64 e.
  destruct (seven_ascii _ _ _ codec_c_ok (recode_c base64 toy_enc) toy_enc (fun b => b) toy_enc base64
              (fun _ => True) ex_cte_wf (fun fs B Hwf _ => recode_c_ok base64 toy_enc fs B Hwf)
              toy_enc_ascii (fun B => eq_refl) ex_fields [10] ex_body [1] [[2]] ex_wf I (or_introl eq_refl))
    as (e' & H1 & _ & _ & _ & H5).
  exists e'. destruct (H5 ex_8bit) as (F & A & _). auto.
Qed.

Section GeneratorFacts.
  Variable src : Type.

  Lemma write_headers_spec : forall (fold : src -> option bytes) hs buf,
    match render_all src fold hs with
    | Some b => write_headers src fold buf hs = Done (buf ++ b ++ CRLF)
    | None => exists buf', write_headers src fold buf hs = Raised buf'
    end.
  Proof.
    induction hs as [|h hs IH]; intros buf; cbn [render_all write_headers].
    - reflexivity.
    - destruct (fold h) as [b|]; [|eexists; reflexivity].
      specialize (IH (buf ++ b)). destruct (render_all src fold hs) as [r|].
      + rewrite IH, <- !app_assoc. reflexivity.
      + exact IH.
  Qed.

  Lemma no_duplication : forall (fold1 fold2 : src -> option bytes) hs,
    msg_generator src fold1 fold2 hs =
    match render_all src fold1 hs with
    | Some b => GenOk (b ++ CRLF)
    | None => match render_all src fold2 hs with
              | Some b => GenOk (b ++ CRLF)
              | None => GenRaises
              end
    end.
  Proof.
    intros fold1 fold2 hs. unfold msg_generator.
    pose proof (write_headers_spec fold1 hs []) as H1. destruct (render_all src fold1 hs) as [b1|].
    - rewrite H1. reflexivity.
    - destruct H1 as [buf' ->].
      pose proof (write_headers_spec fold2 hs []) as H2. destruct (render_all src fold2 hs) as [b2|].
      + rewrite H2. reflexivity.
      + destruct H2 as [buf2 ->]. reflexivity.
  Qed.
End GeneratorFacts.

Lemma render_cons : forall f fs, render (f :: fs) = render [f] ++ render fs.
Proof.
  intros. unfold render, block_lines. cbn [flat_map]. rewrite app_nil_r, render_lines_app. reflexivity.
Qed.

Lemma render_all_as_received : forall fold fs,
  (forall f, In f fs -> fold f = Some (fold_raw f)) ->
  render_all field fold fs = Some (render (hnorm_fields fs)).
Proof.
  intros fold fs. induction fs as [|f fs IH]; intros H; cbn [render_all]; [reflexivity|].
  rewrite (H f (or_introl eq_refl)), IH by (intros g Hg; apply H; right; exact Hg).
  unfold hnorm_fields. cbn [map]. rewrite (render_cons (crlf_field f)). reflexivity.
Qed.

Lemma fallback_flatten : forall (hparse : bytes -> list field * option bytes) (fold_smtp : field -> option bytes),
  parser_ok_x hparse ->
  forall fs blank B s r, xwf_block fs = true -> blank_ok blank ->
  let e := parse (list field) hparse s r (render fs ++ blank ++ B) in
  e_message e = B /\ e_headers e = fs /\
  msg_generator field fold_smtp (fun f => Some (fold_raw f)) (e_headers e) =
    match render_all field fold_smtp fs with
    | Some b => GenOk (b ++ CRLF)
    | None => GenOk (render (hnorm_fields fs) ++ CRLF)
    end.
Proof.
  intros hparse fold_smtp Hp fs blank B s r Hwf Hb. unfold parse.
  rewrite (search_xwf fs blank B Hwf Hb), (Hp fs blank Hwf Hb). cbn.
  split; [reflexivity|]. split; [reflexivity|].
  rewrite no_duplication, (render_all_as_received (fun f => Some (fold_raw f))) by reflexivity. reflexivity.
Qed.

(* when every line is short (the property's class) the first attempt succeeds
   with the fields as received *)
Lemma fallback_short : forall fold_smtp fs,
  fold_short_ok fold_smtp -> wf_block fs = true ->
  msg_generator field fold_smtp (fun f => Some (fold_raw f)) fs = GenOk (render (hnorm_fields fs) ++ CRLF).
Proof.
  intros fold_smtp fs Hs Hwf. destruct (block_inv _ fs Hwf) as [_ Hall].
  rewrite forallb_forall in Hall.
  rewrite no_duplication, render_all_as_received by (intros f Hf; apply Hs, Hall, Hf). reflexivity.
Qed.

(* hypotheses satisfiable; and what the theorem excludes: the shared-buffer variant
   writes the headers in front of the un-foldable one twice *)
Definition hparse_x_total (d : bytes) : list field * option bytes :=
  (match parse_block_x d with Some fs => fs | None => [] end, None).

Example parser_ok_x_sat : parser_ok_x hparse_x_total.
Proof.
  intros fs blank Hwf Hb. unfold hparse_x_total.
  rewrite (parse_block_x_render fs blank Hwf (or_intror Hb)). reflexivity.
Qed.

Example fold_short_ok_sat : fold_short_ok (fun f => if short (first_line f) then Some (fold_raw f) else None).
Proof.
  intros f H. unfold wf_field in H. apply andb_prop in H as [H _]. apply andb_prop in H as [_ H]. rewrite H. reflexivity.
Qed.

Example ex_shared_buffer_duplicates :
  let fold1 := fun n : N => if n =? 2 then None else Some [n] in
  let fold2 := fun n : N => Some [n] in
  msg_generator N fold1 fold2 [1; 2; 3] = GenOk [1; 2; 3; 13; 10]
  /\ msg_generator_shared N fold1 fold2 [1; 2; 3] = GenOk [1; 1; 2; 3; 13; 10].
Proof. split; reflexivity. Qed.

Section OpsFacts.
  Variable hdr : Type.
  Variable hparse : bytes -> hdr * option bytes.
  Variable hgen : hdr -> bytes.
  Variable hedit : N -> hdr -> option hdr.

  Notation step := (step hdr hparse hgen hedit).
  Notation effect := (effect hdr hparse hgen hedit).
  Notation observe := (observe hdr hparse hgen hedit).
  Notation trace := (trace hdr hparse hgen hedit).
  Notation state_at := (state_at hdr hparse hgen hedit).

  (* every observation of a sequence is the observation of that operation on the
     envelope as the earlier operations left it - nothing else is remembered *)
  Lemma trace_nth : forall ops e k,
    nth_error (trace ops e) k =
    match nth_error ops k with
    | Some o => Some (observe o (state_at k ops e))
    | None => None
    end.
  Proof.
    induction ops as [|o ops IH]; intros e k.
    - destruct k; reflexivity.
    - destruct k as [|k]; cbn [Envelope.trace nth_error].
      + reflexivity.
      + rewrite IH. unfold Envelope.state_at. cbn [firstn fold_left]. reflexivity.
  Qed.

  Lemma flatten_reflects_current_state : forall ops e k,
    nth_error ops k = Some OFlatten ->
    nth_error (trace ops e) k =
      Some (ObsFlat (hgen (e_headers (state_at k ops e))) (e_message (state_at k ops e))).
  Proof. intros ops e k H. rewrite trace_nth, H. reflexivity. Qed.

  Lemma state_at_app : forall pre l n e,
    state_at (length pre + n) (pre ++ l) e
    = fold_left (fun s o => effect o s) (firstn n l) (state_at (length pre) pre e).
  Proof.
    intros. unfold Envelope.state_at. rewrite firstn_app_2, fold_left_app, firstn_all. reflexivity.
  Qed.

  Lemma flatten_after_edit : forall pre j h' e,
    let s := state_at (length pre) pre e in
    hedit j (e_headers s) = Some h' ->
    nth_error (trace (pre ++ [OFlatten; OEdit j; OFlatten]) e) (length pre + 2)
    = Some (ObsFlat (hgen h') (e_message s)).
  Proof.
    intros pre j h' e s H.
    rewrite flatten_reflects_current_state.
    2:{ rewrite nth_error_app2 by lia. replace (length pre + 2 - length pre)%nat with 2%nat by lia. reflexivity. }
    rewrite state_at_app. fold s. cbn [firstn fold_left].
    unfold Envelope.effect. cbn [Envelope.step fst]. rewrite H. reflexivity.
  Qed.

  Lemma encode_7bit_f_eq : forall rc e,
    encode_7bit_f hdr hparse hgen rc e =
    if has_8bit (e_message e) then
      match rc with
      | None => (e, ObsRefused)
      | Some f => match f (join (flatten hdr hgen e)) with
                  | None => (e, ObsEncoderRaised)
                  | Some d => (parse hdr hparse (e_sender e) (e_rcpts e) d, ObsDone)
                  end
      end
    else (e, ObsDone).
  Proof. intros rc e. apply if_ascii_8bit. Qed.
End OpsFacts.
