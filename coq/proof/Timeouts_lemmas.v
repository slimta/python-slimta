(* C14 -- lemmas about model/Timeouts.v, for any table (the obligations over the regenerated
   table are discharged in prop/C14.v by vm_compute).  Server: `bounded` and run_spec.  Client:
   attempt_bound for guarded stages; path_scoped, ideal_sum for the stages of a table that
   passes path_scopes_ok.  Then the examples. *)
From Coq Require Import List NArith Bool String Lia.
From SV Require Import lib.Bytes model.Timeouts proof.List_lemmas.
Import ListNotations.
Open Scope N_scope.

Definition open_ev (e : event) : Prop := ev_time e <> None.
Definition at_time (t : N) (e : event) : Prop := ev_time e = Some t.

Lemma anchor_from_app : forall pre1 pre2 a,
  anchor_from a (pre1 ++ pre2) = anchor_from (anchor_from a pre1) pre2.
Proof. intros. apply fold_left_app. Qed.

Lemma phase_from_app : forall pre1 pre2 p,
  phase_from p (pre1 ++ pre2) = phase_from (phase_from p pre1) pre2.
Proof. intros. apply fold_left_app. Qed.

Lemma at_time_open : forall t evs, Forall (at_time t) evs -> Forall open_ev evs.
Proof. intros t. apply Forall_impl. unfold open_ev, at_time. congruence. Qed.

Lemma anchor_at_time : forall t evs a,
  Forall (at_time t) evs -> evs <> [] -> anchor_from a evs = t.
Proof.
  intros t evs a H. revert a. induction H as [|e l He _ IH]; intros a Hne; [congruence|].
  unfold anchor_from. cbn [fold_left]. rewrite He.
  destruct l; [reflexivity | apply IH; discriminate].
Qed.

(* A trace that ends with its one closing event, no later than the limit of the phase it
   is in then, counted from the last step completed; p and a are the phase and the anchor
   before the trace. *)
Definition bounded (cfg : scfg) (p : phase) (a : N) (evs : list event) : Prop :=
  exists pre t w l,
    evs = pre ++ [EClosed t w]
    /\ Forall open_ev pre
    /\ limit_of cfg (phase_from p pre) = Some l
    /\ t <= anchor_from a pre + l
    /\ (w = WTimeout -> t = anchor_from a pre + l).

Lemma bounded_close : forall cfg p a t w l,
  limit_of cfg p = Some l -> t <= a + l -> (w = WTimeout -> t = a + l) ->
  bounded cfg p a [EClosed t w].
Proof. intros cfg p a t w l Hl Hle Heq. exists [], t, w, l. auto. Qed.

Lemma bounded_app : forall cfg p a t evs rest,
  Forall (at_time t) evs -> bounded cfg (phase_from p evs) (anchor_from a evs) rest ->
  bounded cfg p a (evs ++ rest).
Proof.
  intros cfg p a t evs rest Ht (pre & t' & w & l & -> & Ho & Hl & Hle & Heq).
  exists (evs ++ pre), t', w, l. rewrite phase_from_app, anchor_from_app.
  repeat split; auto using app_assoc. apply Forall_app. eauto using at_time_open.
Qed.

Section ServerProofs.
  Variable S : Type.
  Variable interp : S -> bytes -> S * action.
  Variable data_done : S -> S.

  Let sst := sst S.
  Let step_byte := step_byte S interp data_done.
  Let feed := feed S interp data_done.
  Let run := run S interp data_done.

  Definition goes_on (now : N) (st st' : sst) (evs : list event) : Prop :=
    Forall (at_time now) evs /\ armed st' = anchor_from (armed st) evs
    /\ ph st' = phase_from (ph st) evs.

  Lemma step_byte_spec : forall now (st : sst) b st' evs closed,
    step_byte now st b = (st', evs, closed) ->
    if closed then evs = [EClosed now WQuit] /\ ph st = PCmd else goes_on now st st' evs.
  Proof.
    intros now st b st' evs closed H. unfold goes_on.
    unfold step_byte, Timeouts.step_byte in H.
    destruct (b =? 10).
    - destruct (ph st).
      + destruct (interp (ist st) (strip_cr (rev (rcur st)))) as [s' []];
          injection H as <- <- <-; repeat split; repeat constructor.
      + destruct (is_eod (rev (rcur st))); injection H as <- <- <-;
          repeat split; repeat constructor.
    - injection H as <- <- <-. repeat split. constructor.
  Qed.

  Lemma feed_spec : forall now bs (st : sst) st' evs closed,
    feed now st bs = (st', evs, closed) ->
    if closed
    then exists pre, evs = pre ++ [EClosed now WQuit] /\ Forall (at_time now) pre
                     /\ phase_from (ph st) pre = PCmd
    else goes_on now st st' evs.
  Proof.
    intros now bs. induction bs as [|b bs IH]; intros st st' evs closed H.
    - injection H as <- <- <-. repeat split. constructor.
    - unfold feed in H. cbn [Timeouts.feed] in H.
      fold (step_byte now st b) in H.
      destruct (step_byte now st b) as [[st1 ev1] c1] eqn:Hs.
      apply step_byte_spec in Hs. destruct c1.
      + injection H as <- <- <-. destruct Hs as [-> Hp]. exists []. auto.
      + destruct Hs as (Ht1 & Ha1 & Hp1).
        fold (feed now st1 bs) in H.
        destruct (feed now st1 bs) as [[st2 ev2] c2] eqn:Hf.
        injection H as <- <- <-. apply IH in Hf. destruct c2.
        * destruct Hf as (pre & -> & Htp & Hpp). exists (ev1 ++ pre).
          rewrite phase_from_app, <- Hp1.
          split; [apply app_assoc | split; [apply Forall_app; auto | exact Hpp]].
        * destruct Hf as (Ht2 & Ha2 & Hp2). unfold goes_on.
          rewrite anchor_from_app, phase_from_app, <- Ha1, <- Hp1.
          repeat split; auto. apply Forall_app. auto.
  Qed.

  Lemma limit_some : forall Tc dcfg p,
    exists l, limit_of {| c_cmd := Some Tc; c_data := dcfg |} p = Some l.
  Proof.
    intros Tc dcfg [|]; cbn; [eauto|].
    unfold eff_data. cbn. destruct dcfg as [d|]; [destruct (d =? 0)|]; eauto.
  Qed.

  Lemma run_spec : forall Tc dcfg input now (st : sst),
    let cfg := {| c_cmd := Some Tc; c_data := dcfg |} in
    bounded cfg (ph st) (armed st) (run cfg now st input).
  Proof.
    intros Tc dcfg input. cbv zeta.
    induction input as [|[dl ch] rest IH]; intros now st;
      destruct (limit_some Tc dcfg (ph st)) as [l Hl];
      unfold run; cbn [Timeouts.run]; unfold deadline; rewrite Hl.
    - now apply (bounded_close _ _ _ _ _ l).
    - destruct (N.leb_spec (armed st + l) (now + dl)) as [_|Hlt];
        [now apply (bounded_close _ _ _ _ _ l)|].
      destruct ch as [|c0 ch'].
      { apply (bounded_close _ _ _ _ _ l); [exact Hl | lia | discriminate]. }
      fold (feed (now + dl) st (c0 :: ch')).
      destruct (feed (now + dl) st (c0 :: ch')) as [[st' evs] closed] eqn:Hf.
      apply feed_spec in Hf. destruct closed.
      + destruct Hf as (pre & -> & Htp & Hpp).
        apply (bounded_app _ _ _ _ _ _ Htp). rewrite Hpp.
        apply (bounded_close _ _ _ _ _ Tc); [reflexivity | | discriminate].
        (* no command completed in this chunk: the limit is still the one that has not expired *)
        destruct pre as [|e0 pre0].
        * cbn in Hpp |- *. rewrite Hpp in Hl. injection Hl as <-. lia.
        * rewrite (anchor_at_time (now + dl)); [lia | exact Htp | discriminate].
      + destruct Hf as (Ht & Ha & Hp).
        apply (bounded_app _ _ _ _ _ _ Ht). rewrite <- Ha, <- Hp. apply IH.
  Qed.

  Lemma server_bound : forall (s0 : S) Tc dcfg input,
    let cfg := {| c_cmd := Some Tc; c_data := dcfg |} in
    bounded cfg PCmd 0 (run_server S interp data_done cfg s0 input).
  Proof. intros s0 Tc dcfg input. exact (run_spec Tc dcfg input 0 (mk_sst PCmd [] 0 s0)). Qed.

  Definition no_lf (ch : bytes) : Prop := ch <> [] /\ Forall (fun b => (b =? 10) = false) ch.

  Lemma feed_no_lf : forall now ch (st : sst),
    Forall (fun b => (b =? 10) = false) ch ->
    exists r, feed now st ch = (mk_sst (ph st) r (armed st) (ist st), [], false).
  Proof.
    intros now ch st H. revert st. induction H as [|b ch Hb _ IH]; intros st.
    - exists (rcur st). destruct st; reflexivity.
    - unfold feed. cbn [Timeouts.feed]. unfold Timeouts.step_byte. rewrite Hb.
      destruct (IH (mk_sst (ph st) (b :: rcur st) (armed st) (ist st))) as [r Hr].
      unfold feed in Hr. rewrite Hr. cbn. eauto.
  Qed.

  Lemma run_no_line : forall Tc dcfg input now (st : sst),
    ph st = PCmd -> Forall (fun dc => no_lf (snd dc)) input ->
    run {| c_cmd := Some Tc; c_data := dcfg |} now st input = [EClosed (armed st + Tc) WTimeout].
  Proof.
    intros Tc dcfg input now st Hph H. revert now st Hph.
    induction H as [|[dl ch] rest [Hne Hlf] _ IH]; intros now st Hph;
      unfold run; cbn [Timeouts.run]; unfold deadline; rewrite Hph; [reflexivity|].
    cbn [limit_of c_cmd snd] in *.
    destruct (armed st + Tc <=? now + dl); [reflexivity|].
    destruct ch as [|c0 ch']; [congruence|].
    destruct (feed_no_lf (now + dl) (c0 :: ch') st Hlf) as [r Hr].
    unfold feed in Hr. rewrite Hr. exact (IH (now + dl) (mk_sst (ph st) r (armed st) (ist st)) Hph).
  Qed.

  Lemma server_no_line : forall (s0 : S) Tc dcfg input,
    Forall (fun dc => no_lf (snd dc)) input ->
    run_server S interp data_done {| c_cmd := Some Tc; c_data := dcfg |} s0 input
    = [EClosed Tc WTimeout].
  Proof.
    intros s0 Tc dcfg input H.
    exact (run_no_line Tc dcfg input 0 (mk_sst PCmd [] 0 s0) eq_refl H).
  Qed.
End ServerProofs.

(* hypotheses are satisfiable / the model does something: EHLO, MAIL, RCPT, DATA, then a
   body trickled one byte per 90 units with data_timeout 100: closed 100 after DATA began,
   although no gap between two bytes ever reached the timeout *)
Example server_data_trickle :
  smtp_run {| c_cmd := Some 100; c_data := None |}
    [(10, [69;72;76;79;32;120;13;10]);                               (* EHLO x *)
     (10, [77;65;73;76;32;70;82;79;77;58;60;97;62;13;10]);           (* MAIL FROM:<a> *)
     (10, [82;67;80;84;32;84;79;58;60;98;62;13;10]);                 (* RCPT TO:<b> *)
     (10, [68;65;84;65;13;10]);                                      (* DATA *)
     (90, [97]); (90, [98]); (90, [99])]
  = [ECmd 10; ECmd 20; ECmd 30; EDataBegin 40; EClosed 140 WTimeout].
Proof. vm_compute. reflexivity. Qed.

Example server_no_line_example :
  no_lf [72] /\
  smtp_run {| c_cmd := Some 100; c_data := Some 500 |} [(90, [72]); (90, [69]); (90, [76])]
  = [EClosed 100 WTimeout].
Proof. split; [split; [discriminate|repeat constructor]|vm_compute; reflexivity]. Qed.

Lemma attempt_bound : forall cfg stages i now ds,
  forallb (stage_guarded cfg) stages = true ->
  match run_attempt cfg i now stages ds with
  | CDone t | CTimedOut _ t => t <= now + sum_limits cfg stages
  | CStuck _ => False
  end.
Proof.
  intros cfg stages. induction stages as [|s ss IH]; intros i now ds H.
  - cbn. lia.
  - cbn [forallb] in H. apply andb_true_iff in H. destruct H as [Hs Hss].
    unfold stage_guarded in Hs.
    cbn [run_attempt sum_limits fold_right].
    fold (sum_limits cfg ss).
    destruct (take_wait (cs_waits s) ds) as [wt ds'].
    destruct (scope_limit cfg (cs_scope s)) as [T|]; [|discriminate].
    destruct wt as [x|]; [|lia].
    destruct (N.ltb_spec x T); [|lia].
    specialize (IH (Datatypes.S i) (now + x) ds' Hss).
    destruct (run_attempt cfg (Datatypes.S i) (now + x) ss ds'); first [lia | exact IH].
Qed.

Lemma attempt_unguarded_stuck : forall cfg s post i now ds,
  scope_limit cfg (cs_scope s) = None -> cs_waits s <> O ->
  run_attempt cfg i now (s :: post) (None :: ds) = CStuck i.
Proof.
  intros cfg s post i now ds Hs Hw. cbn [run_attempt].
  destruct (cs_waits s) as [|w]; [congruence|]. cbn [take_wait]. rewrite Hs. reflexivity.
Qed.

Lemma sum_limits_app : forall cfg a b,
  sum_limits cfg (a ++ b) = sum_limits cfg a + sum_limits cfg b.
Proof.
  intros cfg a b. induction a as [|s a IH]; [reflexivity|].
  cbn [app]. unfold sum_limits in *. cbn [fold_right]. rewrite IH.
  destruct (scope_limit cfg (cs_scope s)); lia.
Qed.

Lemma sum_limits_repeat : forall cfg s n T,
  scope_limit cfg (cs_scope s) = Some T ->
  sum_limits cfg (repeat s n) = N.of_nat n * T.
Proof.
  intros cfg s n T H. induction n as [|n IH]; [reflexivity|].
  cbn [repeat]. unfold sum_limits in *. cbn [fold_right]. rewrite H, IH. lia.
Qed.

Lemma texpr_eqb_eq : forall a b, texpr_eqb a b = true -> a = b.
Proof.
  intros a b H. destruct a, b; try discriminate; try reflexivity.
  cbn in H. apply String.eqb_eq in H. subst. reflexivity.
Qed.

Definition expected_scope (m : string) : option texpr :=
  match find (fun me => String.eqb (fst me) m) expected_scopes with
  | Some me => Some (snd me)
  | None => None
  end.

Definition ideal_stages (a : acfg) : list cstage :=
  map (fun mw => mk_cstage (expected_scope (fst mw)) (snd mw)) (attempt_path a).

Lemma path_scopes_ok_spec : forall tbl c m e,
  path_scopes_ok tbl c = true -> expected_scope m = Some e -> method_scope tbl c m = Some e.
Proof.
  intros tbl c m e H E. unfold expected_scope in E.
  destruct (find _ expected_scopes) as [[m' e']|] eqn:F; [|discriminate].
  injection E as <-. apply find_some in F. destruct F as [Hin Hm].
  apply String.eqb_eq in Hm. cbn in Hm. subst m'.
  unfold path_scopes_ok in H. rewrite forallb_forall in H. specialize (H _ Hin). cbn [fst snd] in H.
  destruct (method_scope tbl c m) as [e0|]; [|discriminate].
  apply texpr_eqb_eq in H. congruence.
Qed.

Lemma path_scoped : forall a mw, In mw (attempt_path a) ->
  exists e, expected_scope (fst mw) = Some e /\ guard_expr e = true.
Proof.
  intros a mw Hin.
  assert (P : forallb (fun mw => match expected_scope (fst mw) with
                                 | Some e => guard_expr e | None => false end)
                (attempt_path a) = true).
  { unfold attempt_path. rewrite !forallb_app.
    repeat (apply andb_true_intro; split);
      first [apply forallb_if | apply forallb_repeat | idtac]; reflexivity. }
  rewrite forallb_forall in P. specialize (P mw Hin). cbn beta in P.
  destruct (expected_scope (fst mw)) as [e|]; [eauto|discriminate].
Qed.

Lemma stages_of_ideal : forall tbl a,
  path_scopes_ok tbl (client_class a) = true -> stages_of tbl a = ideal_stages a.
Proof.
  intros tbl a H. apply map_ext_in. intros mw Hin. f_equal.
  destruct (path_scoped a mw Hin) as (e & E & _). rewrite E.
  exact (path_scopes_ok_spec _ _ _ _ H E).
Qed.

Lemma ideal_guarded : forall cfg a, forallb (stage_guarded cfg) (ideal_stages a) = true.
Proof.
  intros cfg a. apply forallb_forall. intros s Hs.
  apply in_map_iff in Hs. destruct Hs as (mw & <- & Hin).
  destruct (path_scoped a mw Hin) as (e & E & G). unfold stage_guarded. cbn. rewrite E.
  destruct e; try discriminate; reflexivity.
Qed.

Lemma sum_limits_map_if : forall {A} cfg (g : A -> cstage) (c : bool) l1 l2,
  sum_limits cfg (map g (if c then l1 else l2))
  = if c then sum_limits cfg (map g l1) else sum_limits cfg (map g l2).
Proof. intros A cfg g [|] l1 l2; reflexivity. Qed.

Lemma ideal_sum : forall cfg a, sum_limits cfg (ideal_stages a) = attempt_limit cfg a.
Proof.
  intros [tc tm td ts] [ti st au pi lm rj n he].
  unfold attempt_limit, n_command_stages, ideal_stages, attempt_path.
  rewrite !map_app, !sum_limits_app, map_repeat, !sum_limits_map_if.
  rewrite (sum_limits_repeat _ _ n tm) by reflexivity.
  (* the limit of every piece is looked up once, before the pieces are told apart *)
  lazy -[N.add N.mul N.of_nat Nat.add].
  destruct ti, st, au, rj, he; lia.
Qed.

Lemma client_bound_of_table : forall tbl a cfg ds,
  path_scopes_ok tbl (client_class a) = true ->
  match run_attempt cfg 0 0 (stages_of tbl a) ds with
  | CDone t | CTimedOut _ t => t <= attempt_limit cfg a
  | CStuck _ => False
  end.
Proof.
  intros tbl a cfg ds H. rewrite (stages_of_ideal tbl a H), <- ideal_sum.
  exact (attempt_bound cfg (ideal_stages a) 0 0 ds (ideal_guarded cfg a)).
Qed.

(* method_scope recomputes the sites of the class and its exposed methods at every call, and
   path_scopes_ok asks for 14 methods of one class.  scope_in is the body of method_scope with
   the two as arguments (so path_scopes_ok_shared holds by conversion): a check of a concrete
   table that goes through it computes them once. *)
Definition scope_in (cs : list site) (ex : list string) (m : string) : option texpr :=
  match map (resolved cs ex)
            (filter (fun s => String.eqb (s_method s) m && needs_guard (s_kind s)) cs) with
  | Some e :: rest =>
      if forallb (fun r => match r with Some e' => texpr_eqb e e' | None => false end) rest
      then Some e else None
  | _ => None
  end.

Lemma path_scopes_ok_shared : forall tbl c,
  path_scopes_ok tbl c =
  let cs := class_sites tbl c in
  let ex := exposed_cs cs in
  forallb (fun me => match scope_in cs ex (fst me) with
                     | Some e => texpr_eqb e (snd me)
                     | None => false end) expected_scopes.
Proof. reflexivity. Qed.

Lemma eff_data_fallback : forall u r,
  r_data r = None -> t_data (eff_ccfg u r) = t_command (eff_ccfg u r).
Proof. intros u r H. unfold eff_ccfg. cbn. rewrite H. reflexivity. Qed.

Example fallback_chain_examples :
  chain_ok ["data_timeout"; "command_timeout"]%string = true
  /\ chain_ok ["data_timeout"]%string = false
  /\ timeouts_have_fallback [mk_site "C" "_send" "send_data" KExchange (Some (TData, 1)) 2]
                            [("C"%string, TData, ["data_timeout"%string])] = false.
Proof. vm_compute. repeat split; reflexivity. Qed.

Definition ex_cfg : ccfg := {| t_connect := 50; t_command := 100; t_data := 300; t_single := 0 |}.
Definition ex_acfg : acfg := mk_acfg false false false true false false 2 false.

Example attempt_bound_example :
  forallb (stage_guarded ex_cfg) (ideal_stages ex_acfg) = true
  /\ List.length (ideal_stages ex_acfg) = 8%nat
  /\ run_attempt ex_cfg 0 0 (ideal_stages ex_acfg)
       [Some 1; Some 2; Some 3; Some 30; Some 30; Some 30; None] = CTimedOut 6 106.
Proof. vm_compute. repeat split; reflexivity. Qed.

(* D18 as it was: _send_message_data with its _flush_pipeline outside the scope has no
   common scope; with PIPELINING the end-of-data reply is awaited there *)
Example attempt_unguarded_example :
  run_attempt ex_cfg 0 0
    (firstn 7 (ideal_stages ex_acfg) ++ [mk_cstage None 1])
    [Some 1; Some 2; Some 3; Some 30; Some 30; Some 30; Some 5; None] = CStuck 7.
Proof. vm_compute. reflexivity. Qed.

(* a miniature table: a helper with an unscoped blocking call is guarded iff every call
   path to it passes through a scope *)
Definition mini_ok : list site :=
  [mk_site "P" "attempt" "_try" KCall None 1;
   mk_site "P" "_try" "_exec" KCall (Some (TSingle, 2)) 3;
   mk_site "P" "_exec" "communicate" KProc None 4].
Definition mini_bad : list site :=
  mini_ok ++ [mk_site "P" "attempt" "_exec" KCall None 5].

Example mini_ok_guarded : all_guarded [] mini_ok = true /\ method_scope mini_ok "P" "_exec" = Some TSingle.
Proof. vm_compute. split; reflexivity. Qed.

Example mini_bad_unguarded :
  map s_callee (unguarded mini_bad) = ["communicate"%string]
  /\ all_guarded [] mini_bad = false
  /\ all_guarded [("_exec"%string, "communicate"%string)] mini_bad = true.
Proof. vm_compute. repeat split; reflexivity. Qed.

(* a wait inside a handler that catches Timeout is not bounded by the scope around the
   `try` nor by the caller's scope (seeded change C14-3: p.wait() after the timer fired) *)
Definition mini_expired : list site :=
  [mk_site "P" "attempt" "_try" KCall None 1;
   mk_site "P" "_try" "_exec" KCall (Some (TSingle, 2)) 3;
   mk_site "P" "_exec" "communicate" KProc None 4;
   mk_site "P" "_exec" "wait" KProc (Some (TExpired, 5)) 6].

Example mini_expired_unguarded :
  map s_callee (unguarded mini_expired) = ["wait"%string]
  /\ method_scope mini_expired "P" "_exec" = None.
Proof. vm_compute. split; reflexivity. Qed.

Example literal_timeout_is_no_guard :
  all_guarded [] [mk_site "C" "_run" "get_banner" KExchange (Some (TOther "None", 1)) 2] = false.
Proof. vm_compute. reflexivity. Qed.
