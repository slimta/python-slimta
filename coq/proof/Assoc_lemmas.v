(* Lemmas about lib/Assoc.v. *)
From Coq Require Import List.
From SV Require Import lib.Assoc.
Import ListNotations.

Section AssocLemmas.
  Variables (K V : Type).
  Variable keqb : K -> K -> bool.
  Hypothesis keqb_eq : forall a b, keqb a b = true <-> a = b.

  Lemma keqb_refl a : keqb a a = true.
  Proof. apply keqb_eq. reflexivity. Qed.

  Lemma keqb_neq a b : a <> b -> keqb a b = false.
  Proof. intros H. destruct (keqb a b) eqn:E; [apply keqb_eq in E; contradiction|reflexivity]. Qed.

  Lemma keqb_false a b : keqb a b = false -> a <> b.
  Proof. intros E ->. rewrite keqb_refl in E. discriminate. Qed.

  Lemma keq_dec (a b : K) : {a = b} + {a <> b}.
  Proof. destruct (keqb a b) eqn:E; [left; apply keqb_eq; exact E|right; apply keqb_false; exact E]. Qed.

  Notation lookup := (alookup keqb).
  Notation del := (adel keqb).
  Notation set := (aset keqb).
  Notation mem := (amem keqb).

  Lemma lookup_del_same (m : amap K V) k : lookup (del m k) k = None.
  Proof.
    induction m as [|[k' v] m IH]; [reflexivity|]. cbn [adel].
    destruct (keqb k' k) eqn:E; [exact IH|]. cbn [alookup]. rewrite E. exact IH.
  Qed.

  Lemma lookup_del_other (m : amap K V) k j : k <> j -> lookup (del m k) j = lookup m j.
  Proof.
    intros Hn. induction m as [|[k' v] m IH]; [reflexivity|]. cbn [adel alookup].
    destruct (keqb k' k) eqn:E.
    - apply keqb_eq in E. subst k'. rewrite (keqb_neq _ _ Hn). exact IH.
    - cbn [alookup]. destruct (keqb k' j); [reflexivity|exact IH].
  Qed.

  Lemma lookup_set_same (m : amap K V) k v : lookup (set m k v) k = Some v.
  Proof. unfold aset. cbn [alookup]. rewrite keqb_refl. reflexivity. Qed.

  Lemma lookup_set_other (m : amap K V) k j v : k <> j -> lookup (set m k v) j = lookup m j.
  Proof. intros Hn. unfold aset. cbn [alookup]. rewrite (keqb_neq _ _ Hn). apply lookup_del_other. exact Hn. Qed.

  Lemma lookup_set (m : amap K V) k j v :
    lookup (set m k v) j = if keqb k j then Some v else lookup m j.
  Proof.
    destruct (keqb k j) eqn:E.
    - apply keqb_eq in E. subst. apply lookup_set_same.
    - apply lookup_set_other. apply keqb_false. exact E.
  Qed.

  Lemma lookup_del (m : amap K V) k j :
    lookup (del m k) j = if keqb k j then None else lookup m j.
  Proof.
    destruct (keqb k j) eqn:E.
    - apply keqb_eq in E. subst. apply lookup_del_same.
    - apply lookup_del_other. apply keqb_false. exact E.
  Qed.

  Lemma mem_lookup (m : amap K V) k : mem m k = true <-> lookup m k <> None.
  Proof. unfold amem. destruct (lookup m k); split; intros H; try reflexivity; try discriminate; congruence. Qed.

  Lemma mem_false_lookup (m : amap K V) k : mem m k = false <-> lookup m k = None.
  Proof. unfold amem. destruct (lookup m k); split; intros H; try reflexivity; discriminate. Qed.

  Lemma lookup_in_keys (m : amap K V) k : lookup m k <> None <-> In k (akeys m).
  Proof.
    induction m as [|[k' v] m IH]; cbn [alookup akeys map fst In].
    - split; [congruence|intros []].
    - destruct (keqb k' k) eqn:E.
      + apply keqb_eq in E. subst. split; [left; reflexivity|discriminate].
      + rewrite IH. split; [right; assumption|].
        intros [->|H]; [rewrite keqb_refl in E; discriminate|exact H].
  Qed.

  Lemma lookup_In (m : amap K V) k v : lookup m k = Some v -> In (k, v) m.
  Proof.
    induction m as [|[k' v'] m IH]; cbn [alookup]; [discriminate|].
    destruct (keqb k' k) eqn:E.
    - apply keqb_eq in E. subst. intros H; inversion H; left; reflexivity.
    - intros H; right; apply IH; exact H.
  Qed.

  Lemma In_lookup_nodup (m : amap K V) k v : NoDup (akeys m) -> In (k, v) m -> lookup m k = Some v.
  Proof.
    induction m as [|[k' v'] m IH]; cbn [akeys map fst]; intros Hnd Hin; [destruct Hin|].
    inversion Hnd as [|? ? Hni Hnd']; subst. cbn [alookup]. destruct Hin as [E|Hin].
    - inversion E; subst. rewrite keqb_refl. reflexivity.
    - destruct (keqb k' k) eqn:E.
      + apply keqb_eq in E. subst. exfalso. apply Hni. change (In k (akeys m)).
        apply lookup_in_keys. rewrite (IH Hnd' Hin). discriminate.
      + apply IH; assumption.
  Qed.

  Lemma keys_del_subset (m : amap K V) k j : In j (akeys (del m k)) -> In j (akeys m).
  Proof.
    induction m as [|[k' v] m IH]; cbn [adel akeys map fst In]; [intros []|].
    destruct (keqb k' k); cbn [akeys map fst In]; intros H.
    - right. apply IH. exact H.
    - destruct H as [H|H]; [left; exact H|right; apply IH; exact H].
  Qed.

  Lemma nodup_del (m : amap K V) k : NoDup (akeys m) -> NoDup (akeys (del m k)).
  Proof.
    induction m as [|[k' v] m IH]; cbn [adel akeys map fst]; intros H; [constructor|].
    inversion H as [|? ? Hni Hnd]; subst.
    destruct (keqb k' k); [apply IH; exact Hnd|].
    cbn [akeys map fst]. constructor; [|apply IH; exact Hnd].
    intros Hin. apply Hni. eapply keys_del_subset. exact Hin.
  Qed.

  Lemma nodup_set (m : amap K V) k v : NoDup (akeys m) -> NoDup (akeys (set m k v)).
  Proof.
    intros H. unfold aset. cbn [akeys map fst]. constructor; [|apply nodup_del; exact H].
    intros Hin. change (In k (akeys (del m k))) in Hin. apply lookup_in_keys in Hin.
    rewrite lookup_del_same in Hin. congruence.
  Qed.

  Lemma del_absent (m : amap K V) k : lookup m k = None -> del m k = m.
  Proof.
    induction m as [|[k' v] m IH]; cbn [alookup adel]; [reflexivity|].
    destruct (keqb k' k); [discriminate|]. intros H. rewrite IH by exact H. reflexivity.
  Qed.

  Lemma set_set (m : amap K V) k v v' : set (set m k v) k v' = set m k v'.
  Proof.
    unfold aset. cbn [adel]. rewrite keqb_refl, del_absent; [reflexivity|apply lookup_del_same].
  Qed.
End AssocLemmas.
