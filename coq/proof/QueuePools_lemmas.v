(* The slot discipline of the Queue's bounded pools (model/QueuePools.v): a stuck state stays stuck and has a full
   pool somebody waits for (stuck_needs_full_pool, hence no deadlock with unbounded pools; the schedule of D10 ends in
   one); slot accounting PInv (free + holders = capacity) over all runs, from which an unbounded relay pool and two
   store slots exclude a stuck state. *)
From Coq Require Import List Arith Bool Lia.
From SV Require Import model.QueuePools proof.List_lemmas.
Import ListNotations.

Lemma ptask_eqb_eq : forall a b, ptask_eqb a b = true -> a = b.
Proof.
  intros a b H; destruct a, b; cbn in H; try discriminate; try reflexivity;
    apply Nat.eqb_eq in H; subst; reflexivity.
Qed.
Lemma ptask_eqb_refl : forall a, ptask_eqb a a = true.
Proof. destruct a; cbn; auto using Nat.eqb_refl. Qed.

Lemma has_In : forall t l, has t l = true <-> In t l.
Proof.
  intros t l; induction l as [|x l IH]; cbn; [split; [discriminate|tauto]|].
  rewrite orb_true_iff, IH. split; intros [H|H]; auto.
  - left. symmetry. apply ptask_eqb_eq. exact H.
  - subst. left. apply ptask_eqb_refl.
Qed.

(* the task an event belongs to: the inverse of [next_event] *)
Definition waiter (e : pevent) : ptask :=
  match e with
  | EAcqS i => PDeqWantS i | EGot i => PDeqGet i | EAcqR i => PDeqWantR i
  | EDone i => PAttRun i | EAcqS2 i => PAttWantS i | EFin i => PSto i
  end.

Lemma can_move_waiter : forall s e, can_move s (waiter e) = enabled s e.
Proof. intros s e. destruct e; reflexivity. Qed.

Lemma enabled_has : forall s e, enabled s e = true -> has (waiter e) (ptasks s) = true.
Proof. intros s e H. destruct e; cbn in H |- *; try exact H; apply andb_true_iff in H; apply H. Qed.

Lemma stuck_spec : forall s, stuck s = true <->
  (exists t, In t (ptasks s) /\ is_work t = true) /\ forall t, In t (ptasks s) -> can_move s t = false.
Proof.
  intros s. unfold stuck. rewrite andb_true_iff, negb_true_iff, existsb_exists.
  split; intros [W M]; (split; [exact W|]).
  - intros t. apply existsb_false_In, M.
  - destruct (existsb (can_move s) (ptasks s)) eqn:E; [|reflexivity].
    apply existsb_exists in E. destruct E as [t [Ht Hm]]. rewrite (M t Ht) in Hm. discriminate.
Qed.

Lemma stuck_step : forall s e, stuck s = true -> pstep s e = s.
Proof.
  intros s e H. apply stuck_spec in H. destruct H as [_ M]. unfold pstep.
  destruct (enabled s e) eqn:E; [|reflexivity].
  pose proof (M _ (proj1 (has_In _ _) (enabled_has s e E))) as N. rewrite can_move_waiter, E in N. discriminate.
Qed.

Lemma stuck_forever : forall es s, stuck s = true -> prun es s = s.
Proof.
  intros es s H. apply (fold_left_inv pstep (fun s' => s' = s)); [|reflexivity].
  intros s' e ->. apply stuck_step, H.
Qed.

Lemma d10_deadlock :
  let s := prun d10_sched d10_start in
  stuck s = true /\ ptasks s = [PWaitStore; PAttWantS 0; PDeqWantR 1] /\
  free_s s = Some 0 /\ free_r s = Some 0 /\ forall es, prun es s = s.
Proof.
  cbv zeta. change (prun d10_sched d10_start) with (mkP (Some 0) (Some 0) [PWaitStore; PAttWantS 0; PDeqWantR 1]).
  repeat split. intros es. apply stuck_forever. reflexivity.
Qed.

Lemma blocked_why : forall s t, In t (ptasks s) -> is_work t = true -> can_move s t = false ->
  (exists i, t = PDeqWantR i /\ free_r s = Some 0) \/
  (exists i, (t = PDeqWantS i \/ t = PAttWantS i) /\ free_s s = Some 0).
Proof.
  intros s t Ht Hw NM. apply has_In in Ht.
  destruct t; try discriminate Hw; unfold can_move in NM; cbn in NM; rewrite Ht in NM; try discriminate NM.
  - right. exists i. split; [left; reflexivity|]. destruct (free_s s) as [[|n]|]; try discriminate NM; reflexivity.
  - left. exists i. split; [reflexivity|]. destruct (free_r s) as [[|n]|]; try discriminate NM; reflexivity.
  - right. exists i. split; [right; reflexivity|]. destruct (free_s s) as [[|n]|]; try discriminate NM; reflexivity.
Qed.

Lemma stuck_needs_full_pool : forall s, stuck s = true ->
  (exists i, In (PDeqWantR i) (ptasks s) /\ free_r s = Some 0) \/
  (exists i, (In (PDeqWantS i) (ptasks s) \/ In (PAttWantS i) (ptasks s)) /\ free_s s = Some 0).
Proof.
  intros s H. apply stuck_spec in H. destruct H as [[t [Ht Hw]] M].
  destruct (blocked_why s t Ht Hw (M t Ht)) as [[i [-> F]] | [i [[-> | ->] F]]];
    [left | right | right]; exists i; tauto.
Qed.

Lemma unbounded_never_stuck : forall s, free_s s = None -> free_r s = None -> stuck s = false.
Proof.
  intros s Hs Hr. destruct (stuck s) eqn:E; [|reflexivity].
  destruct (stuck_needs_full_pool s E) as [[i [_ H]] | [i [_ H]]]; congruence.
Qed.

Lemma papply_unbounded : forall s o,
  (free_s s = None -> free_s (papply s o) = None) /\ (free_r s = None -> free_r (papply s o) = None).
Proof.
  intros s o. destruct o as [e|i|i]; cbn; unfold pstep, add_attempt.
  - destruct (enabled s e); cbn; [destruct e; cbn|]; split; intros ->; reflexivity.
  - split; intros H; exact H.
  - destruct (avail (free_r s)); cbn; split; intros ->; reflexivity.
Qed.

Lemma pruns_free_s_none : forall os s, free_s s = None -> free_s (pruns os s) = None.
Proof. intros os. apply (fold_left_inv papply (fun s => free_s s = None)). intros s o. apply papply_unbounded. Qed.

Lemma pruns_free_r_none : forall os s, free_r s = None -> free_r (pruns os s) = None.
Proof. intros os. apply (fold_left_inv papply (fun s => free_r s = None)). intros s o. apply papply_unbounded. Qed.

Definition is_wait (t : ptask) : bool := match t with PWaitStore => true | _ => false end.
Definition acc (f : option nat) (held cap : nat) : Prop := match f with None => True | Some n => n + held = cap end.
Record PInv (cs cr : nat) (s : pstate) : Prop := mkPInv {
  pi_s : acc (free_s s) (count holds_s (ptasks s)) cs;
  pi_r : acc (free_r s) (count holds_r (ptasks s)) cr;
  pi_w : count is_wait (ptasks s) <= 1 }.

Definition b2n (b : bool) : nat := if b then 1 else 0.

Lemma count_cons : forall f t l, count f (t :: l) = b2n (f t) + count f l.
Proof. intros. unfold count. cbn. destruct (f t); reflexivity. Qed.

Lemma count_snoc : forall f l t, count f (l ++ [t]) = count f l + b2n (f t).
Proof. intros. unfold count. rewrite filter_app, app_length. cbn. destruct (f t); reflexivity. Qed.

Lemma count_repl : forall f t t' l, has t l = true ->
  count f (repl t t' l) + b2n (f t) = count f l + b2n (f t').
Proof.
  intros f t t' l; induction l as [|x l IH]; cbn [has repl]; [discriminate|]. intros H.
  destruct (ptask_eqb t x) eqn:E.
  - apply ptask_eqb_eq in E; subst x. rewrite !count_cons. lia.
  - specialize (IH H). rewrite !count_cons. lia.
Qed.

Lemma count_rem1 : forall f t l, has t l = true -> count f (rem1 t l) + b2n (f t) = count f l.
Proof.
  intros f t l; induction l as [|x l IH]; cbn [has rem1]; [discriminate|]. intros H.
  destruct (ptask_eqb t x) eqn:E.
  - apply ptask_eqb_eq in E; subst x. rewrite count_cons. lia.
  - specialize (IH H). rewrite !count_cons. lia.
Qed.

(* a task changes kind: a pool's holders change by what the task holds before and after, its free
   count moves the other way *)
Definition moved (f : ptask -> bool) (t t' : ptask) (fr : option nat) : option nat :=
  match f t, f t' with true, false => give fr | false, true => take fr | _, _ => fr end.

Lemma acc_repl : forall f t t' l fr cap,
  has t l = true -> acc fr (count f l) cap -> (f t = false -> f t' = true -> avail fr = true) ->
  acc (moved f t t' fr) (count f (repl t t' l)) cap.
Proof.
  intros f t t' l fr cap H A V. unfold moved. pose proof (count_repl f t t' l H) as C.
  destruct fr as [n|]; [|destruct (f t), (f t'); exact I].
  destruct (f t), (f t'); cbn in *; try lia. specialize (V eq_refl eq_refl). destruct n; [discriminate | lia].
Qed.

Lemma PInv_repl : forall cs cr s t t',
  PInv cs cr s -> has t (ptasks s) = true -> is_wait t = is_wait t' ->
  (holds_s t = false -> holds_s t' = true -> avail (free_s s) = true) ->
  (holds_r t = false -> holds_r t' = true -> avail (free_r s) = true) ->
  PInv cs cr (mkP (moved holds_s t t' (free_s s)) (moved holds_r t t' (free_r s)) (repl t t' (ptasks s))).
Proof.
  intros cs cr s t t' [Is Ir Iw] H W Vs Vr. constructor; cbn [free_s free_r ptasks].
  - exact (acc_repl holds_s t t' _ _ _ H Is Vs).
  - exact (acc_repl holds_r t t' _ _ _ H Ir Vr).
  - pose proof (count_repl is_wait t t' _ H) as C. rewrite W in C. lia.
Qed.

(* where an event takes a slot of a pool, its own test says there is one *)
Lemma pstep_inv : forall cs cr s e, PInv cs cr s -> PInv cs cr (pstep s e).
Proof.
  intros cs cr s e PI. unfold pstep. destruct (enabled s e) eqn:E; cbn [negb]; [|exact PI].
  pose proof (enabled_has s e E) as H.
  destruct e as [i|i|i|i|i|i]; cbn [enabled waiter] in E, H.
  - apply (PInv_repl cs cr s (PDeqWantS i) (PDeqGet i) PI H eq_refl); [intros _ _; exact (proj2 (andb_prop _ _ E))|discriminate].
  - apply (PInv_repl cs cr s (PDeqGet i) (PDeqWantR i) PI H eq_refl); discriminate.
  - apply (PInv_repl cs cr s (PDeqWantR i) (PAttRun i) PI H eq_refl); [discriminate|intros _ _; exact (proj2 (andb_prop _ _ E))].
  - apply (PInv_repl cs cr s (PAttRun i) (PAttWantS i) PI H eq_refl); discriminate.
  - apply (PInv_repl cs cr s (PAttWantS i) (PSto i) PI H eq_refl); [intros _ _; exact (proj2 (andb_prop _ _ E))|discriminate].
  - (* EFin: the task ends and gives its store slot back *)
    destruct PI as [Is Ir Iw]. constructor; cbn [free_s free_r ptasks].
    + pose proof (count_rem1 holds_s _ _ H) as C. destruct (free_s s); cbn in *; [lia | exact I].
    + pose proof (count_rem1 holds_r _ _ H) as C. destruct (free_r s); cbn in *; [lia | exact I].
    + pose proof (count_rem1 is_wait _ _ H) as C. cbn in C. lia.
Qed.

Lemma papply_inv : forall cs cr s o, PInv cs cr s -> PInv cs cr (papply s o).
Proof.
  intros cs cr s o PI. destruct o as [e|i|i]; cbn [papply]; [apply pstep_inv; exact PI| |].
  - destruct PI as [Is Ir Iw]. constructor; cbn [add_dispatch free_s free_r ptasks]; rewrite count_snoc, Nat.add_0_r; assumption.
  - unfold add_attempt. destruct (avail (free_r s)) eqn:A; [|exact PI].
    destruct PI as [Is Ir Iw]. constructor; cbn [free_s free_r ptasks]; rewrite count_snoc; cbn [holds_s holds_r is_wait b2n];
      rewrite ?Nat.add_0_r; try assumption.
    destruct (free_r s) as [[|n]|]; cbn in *; [discriminate | lia | exact I].
Qed.

Lemma pruns_inv : forall cs cr os s, PInv cs cr s -> PInv cs cr (pruns os s).
Proof. intros cs cr os. apply fold_left_inv. intros s o. apply papply_inv. Qed.

(* at the start nobody holds a relay slot: a bounded relay pool has all [cr] of its slots free *)
Lemma pinit_inv : forall cs cr fr waits, (waits = true -> 1 <= cs) -> acc fr 0 cr ->
  PInv cs cr (pinit (Some cs) fr waits).
Proof.
  intros cs cr fr waits H A. destruct waits; constructor; cbn; try lia; exact A.
Qed.

Lemma count_le_all : forall f g l, (forall t, In t l -> f t = true -> g t = true) -> count f l <= count g l.
Proof.
  intros f g l; induction l as [|x l IH]; intros H; [apply Nat.le_refl|]. rewrite !count_cons.
  assert (IH' : count f l <= count g l) by (apply IH; intros t Ht; apply H; right; exact Ht).
  destruct (f x) eqn:Fx; [rewrite (H x (or_introl eq_refl) Fx)|]; cbn; lia.
Qed.

Lemma relay_unbounded_never_stuck : forall cs cr s, 2 <= cs -> PInv cs cr s -> free_r s = None -> stuck s = false.
Proof.
  intros cs cr s Hcs [Is Ir Iw] Hr. destruct (stuck s) eqn:E; [exfalso | reflexivity].
  (* somebody waits for a store slot and none is free: all [cs] of them are held ... *)
  destruct (stuck_needs_full_pool s E) as [[i [_ F]] | [i [_ F]]]; [congruence|].
  rewrite F in Is. cbn in Is.
  (* ... but a holder of a store slot other than the wait task could move *)
  apply stuck_spec in E. destruct E as [_ M].
  assert (HW : count holds_s (ptasks s) <= count is_wait (ptasks s)).
  { apply count_le_all. intros t Ht Hh. specialize (M t Ht). apply has_In in Ht.
    destruct t; try discriminate Hh; try reflexivity; unfold can_move in M; cbn in M; rewrite Ht, ?Hr in M; discriminate M. }
  lia.
Qed.

(* the premises of relay_unbounded_never_stuck and d10 are met by real configurations *)
Example ex_relay_unbounded : let s := pruns [OAttempt 0; ODispatch 1; OEv (EAcqS 1); OEv (EGot 1); OEv (EDone 0)] (pinit (Some 2) None true) in
  PInv 2 0 s /\ free_r s = None /\ stuck s = false /\ existsb is_work (ptasks s) = true.
Proof.
  cbv zeta. split; [apply pruns_inv, pinit_inv; [intros; lia|exact I]|].
  split; [vm_compute; reflexivity|]. split; vm_compute; reflexivity.
Qed.
