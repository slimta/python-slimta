(* C10, proofs (model/Client.v).  The invariant `Inv st f` - the first f Reply objects hold the
   first f scripted replies, the others are the reply_queue - is kept by each primitive (slot
   pop, new slot, tail of ehlo) and so, through a case principle for `step`, by every call;
   cl_reach, cl_reach_step and cl_lmtp_reach say what holds of the states a call sequence
   reaches, and the theorems of prop/C10.v are read off them.  The reply parser is that of C17:
   what is needed about recv_reply comes from proof/Reply_lemmas.v. *)
From Coq Require Import String List NArith Bool Lia Arith Sorting.Sorted.
From SV Require Import lib.Bytes proof.List_lemmas proof.Bytes_lemmas proof.Reply_lemmas model.Reply model.Client.
Import ListNotations.
Open Scope N_scope.

Lemma cl_beqb_eq : forall a b, beqb a b = true -> a = b.
Proof. intros a b. apply beqb_eq. Qed.

Definition code3 (c : bytes) : Prop :=
  exists d1 d2 d3, c = [d1; d2; d3] /\ (((49 <=? d1) && (d1 <=? 53)) = true /\ is_digit d1 = true) /\ is_digit d2 = true /\ is_digit d3 = true.

Lemma cl_code_ok_code3 : forall c, code_ok c = true -> forallb is_digit c = true -> code3 c.
Proof.
  intros c H D. destruct c as [|a [|b [|d [|? ?]]]]; try discriminate.
  cbn in D. repeat (apply andb_prop in D; destruct D as [? D]).
  exists a, b, d. cbn in H. auto.
Qed.

Lemma cl_code3_is_code : forall c, code3 c -> is_code c.
Proof. intros c (d1 & d2 & d3 & -> & [H1 _] & H2 & H3). exists d1, d2, d3. auto. Qed.

Lemma cl_recv_reply_wire : forall c ls t buf chunks,
  code3 c -> ls <> [] -> forallb no_lf ls = true ->
  nonempty_chunks chunks ->
  buf ++ concat chunks = emit_lines c ls ++ t ->
  exists buf' ch',
    recv_reply buf chunks = ROk c (join CRLF ls) buf' ch' /\
    buf' ++ concat ch' = t /\ nonempty_chunks ch'.
Proof.
  intros c ls t buf chunks Hc Hne Hlf. apply emit_recv; [apply cl_code3_is_code, Hc|exact Hne|apply nolfb_all_iff, Hlf].
Qed.

Local Open Scope nat_scope.

Lemma cl_upd_length : forall A (l : list A) i g, length (upd l i g) = length l.
Proof. induction l; destruct i; cbn; auto. Qed.

Lemma cl_nth_upd : forall A (l : list A) i j g d, i < length l ->
  nth j (upd l i g) d = if j =? i then g (nth i l d) else nth j l d.
Proof.
  induction l as [|x l IH]; intros i j g d H; cbn in H; [lia|].
  destruct i, j; cbn; try reflexivity. apply IH. lia.
Qed.

Lemma cl_map_upd : forall A B (h : A -> B) (l : list A) i g,
  (forall x, h (g x) = h x) -> map h (upd l i g) = map h l.
Proof. induction l; destruct i; intros g H; cbn; rewrite ?H, ?IHl; auto. Qed.

Lemma cl_sorted_app : forall a b m,
  StronglySorted lt a -> StronglySorted lt b ->
  Forall (fun i => i < m) a -> Forall (fun i => m <= i) b -> StronglySorted lt (a ++ b).
Proof.
  induction a as [|x a IH]; intros b m Ha Hb Fa Fb; cbn; [exact Hb|].
  inversion Ha; subst. inversion Fa; subst. constructor; [eapply IH; eassumption|].
  apply Forall_app. split; [assumption|]. eapply Forall_impl; [|exact Fb]. cbn. intros. lia.
Qed.

Lemma cl_seq_sorted : forall k n, StronglySorted lt (seq n k) /\ Forall (fun i => n <= i < n + k) (seq n k).
Proof.
  induction k as [|k IH]; intros n; cbn; [split; constructor|].
  destruct (IH (S n)) as [H1 H2]. split.
  - constructor; [exact H1|]. eapply Forall_impl; [|exact H2]. cbn. intros. lia.
  - constructor; [lia|]. eapply Forall_impl; [|exact H2]. cbn. intros. lia.
Qed.

Lemma cl_number_fst : forall l n, map fst (number n l) = l.
Proof. induction l; intros; cbn; [reflexivity|]. f_equal. apply IHl. Qed.
Lemma cl_number_snd : forall l n, map snd (number n l) = seq n (length l).
Proof. induction l; intros; cbn; [reflexivity|]. f_equal. apply IHl. Qed.

Section Pairing.
  Variable udigit : N -> bool.
  Variable uspace : N -> bool.

  Lemma cl_script_ok_inv : forall c ls,
    script_ok (c, ls) = true ->
    code_ok c = true /\ code3 c /\ ls <> [] /\ forallb no_lf ls = true /\
    wf_reply (c, ls) = match utf8_dec (join CRLF ls) with Some _ => true | None => false end.
  Proof.
    intros c ls H. unfold script_ok, wf_reply, bad_utf8 in *.
    destruct (code_ok c) eqn:E1; [|discriminate H].
    destruct (forallb is_digit c) eqn:E2; [|discriminate H].
    destruct ls as [|l ls]; [discriminate H|].
    destruct (forallb no_lf (l :: ls)) eqn:E3; [|discriminate H].
    repeat split; [apply cl_code_ok_code3; assumption|discriminate].
  Qed.

  Lemma cl_recv_into_script : forall old r t buf chunks,
    script_ok r = true -> nonempty_chunks chunks ->
    (buf ++ concat chunks = wire1 r ++ t)%list ->
    exists buf' ch',
      recv_into udigit uspace old buf chunks =
        (if wf_reply r
         then FGot (set_message udigit uspace (mkReply (fst r) (r_esc old) []) (rtext r)) buf' ch'
         else FBadReply buf' ch') /\
      (buf' ++ concat ch' = t)%list /\ nonempty_chunks ch'.
  Proof.
    intros old [c ls] t buf chunks Hok Hch Hs.
    destruct (cl_script_ok_inv c ls Hok) as (Hc & Hc3 & Hne & Hlf & ->).
    destruct (cl_recv_reply_wire c ls t buf chunks Hc3 Hne Hlf Hch Hs) as (buf' & ch' & H1 & H2 & H3).
    exists buf', ch'. split; [|split; assumption].
    unfold recv_into, rtext. cbn [fst snd]. rewrite H1.
    destruct (utf8_dec (join CRLF ls)); [rewrite Hc|]; reflexivity.
  Qed.

  Lemma cl_recv_into_bad : forall old r t buf chunks,
    bad_utf8 r = true -> nonempty_chunks chunks ->
    (buf ++ concat chunks = wire1 r ++ t)%list ->
    exists buf' ch',
      recv_into udigit uspace old buf chunks = FBadReply buf' ch' /\
      (buf' ++ concat ch' = t)%list /\ nonempty_chunks ch'.
  Proof.
    intros old [c ls] t buf chunks Hb Hch Hs.
    assert (Hw : wf_reply (c, ls) = false).
    { unfold bad_utf8 in Hb. apply andb_prop in Hb. destruct Hb as [_ Hb]. unfold wf_reply.
      destruct (utf8_dec (join CRLF ls)); [discriminate Hb|apply andb_false_r]. }
    destruct (cl_recv_into_script old (c, ls) t buf chunks) as (buf' & ch' & H & H');
      [unfold script_ok; rewrite Hb; apply orb_true_r|assumption..|].
    rewrite Hw in H. eauto.
  Qed.

  Variable script : list sreply.
  Variable extra : bytes.
  Hypothesis Hscript : forallb script_ok script = true.

  Definition scr (j : nat) : sreply := nth j script dflt.
  Definition good (j : nat) : bool := wf_reply (scr j).
  Definition has_bad : Prop := exists j, j < length script /\ good j = false.

  Lemma cl_scr_ok : forall j, j < length script -> script_ok (scr j) = true.
  Proof. intros j H. rewrite forallb_forall in Hscript. apply Hscript, nth_In, H. Qed.

  Lemma cl_wire_skipn : forall f, f < length script ->
    wire (skipn f script) = (wire1 (scr f) ++ wire (skipn (S f) script))%list.
  Proof. intros f H. rewrite (skipn_nth script f dflt H). reflexivity. Qed.

  (* what _flush_pipeline leaves alone: the class, the recipient list, and command and kind
     of every Reply object *)
  Definition okc (o : robj) : bytes * kind := (o_cmd o, o_kind o).
  Definition shape (st : cstate) := (s_lmtp st, s_rcpttos st, map okc (s_objs st)).

  Lemma cl_shape_inv : forall st st', shape st' = shape st ->
    s_lmtp st' = s_lmtp st /\ s_rcpttos st' = s_rcpttos st /\
    length (s_objs st') = length (s_objs st) /\ forall j, okc (get_obj st' j) = okc (get_obj st j).
  Proof.
    intros st st' H. injection H as H1 H2 H3. repeat split; try assumption.
    - rewrite <- (map_length okc), H3. apply map_length.
    - intros j. unfold get_obj. rewrite <- !(map_nth okc), H3. reflexivity.
  Qed.

  Definition RCPT : bytes := bs "RCPT".

  (* f = number of scripted replies consumed so far.  Object j < f holds the server's
     j-th reply, unless that reply was undecodable: then its slot was popped and left
     empty (the call that was flushing raised BadReply). *)
  Record Inv (st : cstate) (f : nat) : Prop := mkInv {
    I_dead : s_dead st = false;
    I_queue : s_queue st = seq f (length (s_objs st) - f);
    I_fle : f <= length (s_objs st);
    I_fscript : f <= length script;
    I_stream : (s_rbuf st ++ concat (s_chunks st) = wire (skipn f script) ++ extra)%list;
    I_chunks : nonempty_chunks (s_chunks st);
    I_filled : forall j, j < f ->
        o_r (get_obj st j) =
          if good j then filled udigit uspace (o_kind (get_obj st j)) (scr j)
          else unfilled (o_kind (get_obj st j));
    I_unfilled : forall j, f <= j < length (s_objs st) ->
        o_r (get_obj st j) = unfilled (o_kind (get_obj st j)) /\ o_kind (get_obj st j) <> KHello;
    I_rcpt : Forall (fun p => snd p < length (s_objs st) /\ o_cmd (get_obj st (snd p)) = RCPT)
                    (s_rcpttos st)
  }.

  Lemma cl_inv_same : forall st st' f,
    Inv st f ->
    s_dead st' = s_dead st -> s_queue st' = s_queue st -> s_objs st' = s_objs st ->
    s_rbuf st' = s_rbuf st -> s_chunks st' = s_chunks st -> s_rcpttos st' = s_rcpttos st ->
    Inv st' f.
  Proof.
    intros st st' f [Id Iq Ifl Ifs Is Ic Ifi Iun Ir] E1 E2 E3 E4 E5 E6.
    constructor; unfold get_obj in *; rewrite ?E1, ?E2, ?E3, ?E4, ?E5, ?E6; assumption.
  Qed.

  Lemma cl_inv_clear_rcpttos : forall st f, Inv st f -> Inv (set_rcpttos st []%list) f.
  Proof. intros st f []. constructor; try assumption. constructor. Qed.

  Lemma cl_inv_add_rcpt : forall st f a id,
    Inv st f -> id < length (s_objs st) -> o_cmd (get_obj st id) = RCPT ->
    Inv (set_rcpttos st (s_rcpttos st ++ [(a, id)])%list) f.
  Proof.
    intros st f a id [] H1 H2. constructor; try assumption.
    apply Forall_app. split; [assumption|]. repeat constructor; assumption.
  Qed.

  Lemma cl_new_slot_inv : forall cmd k st f,
    k <> KHello -> Inv st f -> Inv (fst (new_slot cmd k st)) f.
  Proof.
    intros cmd k st f Hk [Id Iq Ifl Ifs Is Ic Ifi Iun Ir]. set (n := length (s_objs st)) in *.
    set (st1 := fst (new_slot cmd k st)).
    assert (El : length (s_objs st1) = S n) by (cbn; rewrite app_length; cbn; lia).
    assert (Eo : forall j, j < n -> get_obj st1 j = get_obj st j) by (intros; apply app_nth1; assumption).
    constructor; try assumption; rewrite ?El.
    - change (s_queue st1) with (s_queue st ++ [n])%list. rewrite Iq.
      replace (S n - f) with (S (n - f)) by lia. rewrite seq_S. do 3 f_equal. lia.
    - lia.
    - intros j Hj. rewrite Eo by lia. apply Ifi, Hj.
    - intros j Hj. destruct (Nat.eq_dec j n) as [->|Hne]; [|rewrite Eo by lia; apply Iun; lia].
      unfold get_obj. cbn [st1 new_slot fst s_objs set_queue set_objs]. rewrite app_nth2, Nat.sub_diag by lia.
      split; [reflexivity|exact Hk].
    - eapply Forall_impl; [|exact Ir]. intros p [H1 H2]. rewrite Eo by exact H1. split; [lia|exact H2].
  Qed.

  Lemma cl_inv_code : forall st f j, Inv st f -> j < f ->
    r_code (o_r (get_obj st j)) = if good j then fst (scr j) else []%list.
  Proof.
    intros st f j I Hj. rewrite (I_filled _ _ I j Hj). destruct (good j); [|reflexivity].
    unfold filled, raw_filled. destruct (o_kind (get_obj st j)); try apply set_message_code.
    destruct (beqb _ C250); rewrite !set_message_code; reflexivity.
  Qed.

  Lemma cl_filled_raw : forall k r, k <> KHello -> filled udigit uspace k r = raw_filled udigit uspace k r.
  Proof. intros k r H. destruct k; try reflexivity. congruence. Qed.

  (* one iteration of the flush loop: slot f is popped and the next scripted reply is
     consumed; the slot receives it if it decodes and stays empty otherwise *)
  Lemma cl_inv_pop : forall st f k buf ch,
    Inv st f -> length (s_objs st) = f + S k -> f < length script ->
    (buf ++ concat ch = wire (skipn (S f) script) ++ extra)%list -> nonempty_chunks ch ->
    forall st2,
    s_objs st2 =
      (if good f
       then upd (s_objs st) f (fun o => mkObj (o_cmd o) (o_kind o)
                                 (raw_filled udigit uspace (o_kind (get_obj st f)) (scr f)))
       else s_objs st) ->
    s_queue st2 = seq (S f) k -> s_rbuf st2 = buf -> s_chunks st2 = ch ->
    s_dead st2 = s_dead st -> s_rcpttos st2 = s_rcpttos st ->
    Inv st2 (S f).
  Proof.
    intros st f k buf ch [Id Iq Ifl Ifs Is Ic Ifi Iun Ir] Hn Hfs Es Ec st2 Eo Eq Eb Ech Ed Er.
    assert (Eg : forall j, get_obj st2 j =
               if (j =? f) && good f
               then mkObj (o_cmd (get_obj st f)) (o_kind (get_obj st f))
                          (raw_filled udigit uspace (o_kind (get_obj st f)) (scr f))
               else get_obj st j).
    { intros j. unfold get_obj. rewrite Eo.
      destruct (good f); [rewrite cl_nth_upd, andb_true_r by lia|rewrite andb_false_r]; reflexivity. }
    assert (El : length (s_objs st2) = length (s_objs st))
      by (rewrite Eo; destruct (good f); [apply cl_upd_length|reflexivity]).
    assert (Ek : forall j, okc (get_obj st2 j) = okc (get_obj st j)).
    { intros j. rewrite Eg. destruct (Nat.eqb_spec j f) as [->|]; destruct (good f); reflexivity. }
    assert (Ekd : forall j, o_kind (get_obj st2 j) = o_kind (get_obj st j))
      by (intros j; exact (f_equal snd (Ek j))).
    destruct (Iun f) as [Hu Hk]; [lia|].
    constructor; rewrite ?El, ?Ed, ?Er, ?Eb, ?Ech; try assumption; try lia.
    - rewrite Eq. f_equal. lia.
    - intros j Hj. rewrite Ekd, Eg. destruct (Nat.eqb_spec j f) as [->|Hne]; cbn [andb].
      + destruct (good f); [cbn [o_r]; rewrite cl_filled_raw by exact Hk; reflexivity|exact Hu].
      + apply Ifi. lia.
    - intros j Hj. rewrite Ekd, Eg. destruct (Nat.eqb_spec j f) as [->|Hne]; [lia|]. apply Iun. lia.
    - eapply Forall_impl; [|exact Ir]. intros p [H1 H2].
      split; [exact H1|]. rewrite <- H2. exact (f_equal fst (Ek _)).
  Qed.

  Lemma cl_inv_hello : forall st f id r,
    Inv st f -> id < f -> good id = true -> r = filled udigit uspace KHello (scr id) ->
    Inv (set_obj_k st id KHello r) f.
  Proof.
    intros st f id r [Id Iq Ifl Ifs Is Ic Ifi Iun Ir] Hid Hg ->.
    set (st2 := set_obj_k st id KHello _).
    assert (Eg : forall j, get_obj st2 j =
               if j =? id then mkObj (o_cmd (get_obj st id)) KHello (filled udigit uspace KHello (scr id))
               else get_obj st j)
      by (intros j; apply cl_nth_upd; lia).
    assert (El : length (s_objs st2) = length (s_objs st)) by apply cl_upd_length.
    constructor; rewrite ?El; try assumption.
    - intros j Hj. rewrite Eg. destruct (Nat.eqb_spec j id) as [->|]; [cbn; rewrite Hg; reflexivity|apply Ifi, Hj].
    - intros j Hj. rewrite Eg. destruct (Nat.eqb_spec j id) as [->|]; [lia|apply Iun, Hj].
    - eapply Forall_impl; [|exact Ir]. intros p [H1 H2]. split; [exact H1|]. rewrite Eg.
      destruct (Nat.eqb_spec (snd p) id) as [<-|]; exact H2.
  Qed.

  Lemma cl_hello_post_inv : forall id st f,
    Inv st f -> id < f -> o_kind (get_obj st id) = KNoEsc -> good id = true ->
    Inv (hello_post udigit uspace id st) f.
  Proof.
    intros id st f I Hid Hk Hg.
    pose proof (I_filled _ _ I id Hid) as Hr. rewrite Hg, Hk in Hr.
    unfold hello_post. rewrite Hr.
    change (filled udigit uspace KNoEsc (scr id)) with (raw_filled udigit uspace KHello (scr id)).
    set (x := raw_filled udigit uspace KHello (scr id)).
    destruct (beqb (r_code x) C250) eqn:E.
    - destruct (parse_string uspace (get_message x)) as [hdr exts] eqn:Ep.
      apply cl_inv_hello; try assumption.
      + eapply cl_inv_same with (st := if s_lmtp st then set_rcpttos st []%list else st);
          [destruct (s_lmtp st); [apply cl_inv_clear_rcpttos|]; exact I|reflexivity..].
      + cbn [filled]. fold x. rewrite E, Ep. reflexivity.
    - apply cl_inv_hello; try assumption. cbn [filled]. fold x. rewrite E. reflexivity.
  Qed.

  Lemma cl_flush_loop_shape : forall q st, shape (fst (flush_loop udigit uspace q st)) = shape st.
  Proof.
    induction q as [|id q IH]; intros st; [reflexivity|]. cbn [flush_loop].
    destruct (recv_into udigit uspace _ _ _) as [r buf ch|buf ch|buf ch|]; try reflexivity.
    rewrite IH. unfold shape. destruct (is_error r); cbn; rewrite cl_map_upd by reflexivity; reflexivity.
  Qed.

  Lemma cl_flush_shape : forall st, shape (fst (flush udigit uspace st)) = shape st.
  Proof.
    intros st. unfold flush. rewrite cl_flush_loop_shape.
    unfold flush_send. destruct (s_sendbuf st); reflexivity.
  Qed.

  (* how _flush_pipeline ends on a client that had read f replies and owns n Reply objects,
     when the server has scripted a reply for each of them: the owed slots, in order, receive
     the next scripted replies; an undecodable reply costs its own slot a BadReply - the slot
     is popped, the reply consumed - and the loop stops there *)
  Definition flushed (f n : nat) (x : cstate * option exn) : Prop :=
    exists f', Inv (fst x) f' /\
      match snd x with
      | None => f' = n /\ forall j, f <= j < n -> good j = true
      | Some e => e = XBadReply /\ has_bad
      end.

  Lemma cl_flush_loop_inv : forall k f st,
    Inv st f -> length (s_objs st) = f + k -> f + k <= length script ->
    flushed f (f + k) (flush_loop udigit uspace (seq f k) st).
  Proof.
    induction k as [|k IH]; intros f st I Hn Hs.
    - exists f. cbn [seq flush_loop fst snd]. split.
      + eapply cl_inv_same; [exact I|try reflexivity..]. cbn.
        rewrite (I_queue _ _ I), Hn, Nat.add_0_r, Nat.sub_diag. reflexivity.
      + split; [lia|]. intros j Hj. lia.
    - cbn [seq flush_loop]. set (st0 := set_queue st (seq (S f) k)).
      assert (Hf : f < length script) by lia.
      pose proof (I_stream _ _ I) as Hst. rewrite (cl_wire_skipn f Hf), <- app_assoc in Hst.
      destruct (cl_recv_into_script (o_r (get_obj st0 f)) (scr f) _ (s_rbuf st0) (s_chunks st0)
                  (cl_scr_ok f Hf) (I_chunks _ _ I) Hst) as (buf' & ch' & Hrecv & Hrest & Hch').
      rewrite Hrecv. clear Hrecv. change (wf_reply (scr f)) with (good f).
      pose proof (cl_inv_pop st f k buf' ch' I Hn Hf Hrest Hch') as Hpop.
      destruct (good f) eqn:Hg.
      + (* the empty slot's _esc is that of its kind: what it receives is raw_filled *)
        destruct (I_unfilled _ _ I f) as [Hu _]; [lia|].
        change (get_obj st0 f) with (get_obj st f). rewrite Hu.
        change (set_message udigit uspace _ (rtext (scr f)))
          with (raw_filled udigit uspace (o_kind (get_obj st f)) (scr f)).
        set (r := raw_filled udigit uspace (o_kind (get_obj st f)) (scr f)) in *.
        match goal with |- context [flush_loop _ _ _ ?s] => set (st2 := s) end.
        destruct (IH (S f) st2) as (f' & I' & Hout).
        * apply Hpop; subst st2; destruct (is_error r); reflexivity.
        * subst st2. destruct (is_error r); cbn; rewrite cl_upd_length; lia.
        * lia.
        * exists f'. split; [exact I'|]. destruct (snd _); [exact Hout|].
          destruct Hout as [-> Hall]. split; [lia|]. intros j Hj.
          destruct (Nat.eq_dec j f) as [->|]; [exact Hg|apply Hall; lia].
      + exists (S f). split; [apply Hpop; reflexivity|]. split; [reflexivity|]. exists f. auto.
  Qed.

  Lemma cl_flush_send_inv : forall st f, Inv st f -> Inv (flush_send st) f.
  Proof.
    intros st f I. eapply cl_inv_same; [exact I|unfold flush_send; destruct (s_sendbuf st); reflexivity..].
  Qed.

  Lemma cl_flush_inv : forall st f,
    Inv st f -> length (s_objs st) <= length script ->
    flushed f (length (s_objs st)) (flush udigit uspace st).
  Proof.
    intros st f I Hlen. pose proof (I_fle _ _ I) as Hfl. apply cl_flush_send_inv in I.
    unfold flush. set (st1 := flush_send st) in *.
    assert (E1 : s_objs st1 = s_objs st) by (subst st1; unfold flush_send; destruct (s_sendbuf st); reflexivity).
    rewrite (I_queue _ _ I), E1.
    set (k := length (s_objs st) - f). replace (length (s_objs st)) with (f + k) by lia.
    apply cl_flush_loop_inv; [exact I|rewrite E1|]; lia.
  Qed.

  (* a method that queues a slot goes on, once command_method has returned it, with a
     post-action on that slot *)
  Definition on_obj (post : nat -> cstate -> cstate) (x : cstate * result) : cstate * result :=
    match x with
    | (st1, RObj id) => (post id st1, RObj id)
    | (st1, RPairs l) => (st1, RPairs l)
    | (st1, RExn e) => (st1, RExn e)
    end.
  Definition add_rcpt (a : list N) (id : nat) (st : cstate) : cstate :=
    if s_lmtp st then set_rcpttos st (s_rcpttos st ++ [(a, id)])%list else st.
  Definition clear_rcpts (id : nat) (st : cstate) : cstate :=
    if s_lmtp st then set_rcpttos st []%list else st.

  Lemma cl_on_obj_id : forall x, on_obj (fun _ st => st) x = x.
  Proof. intros [st [id|l|e]]; reflexivity. Qed.

  Lemma cl_on_obj_len : forall post x,
    (forall id st, length (s_objs (post id st)) = length (s_objs st)) ->
    length (s_objs (fst (on_obj post x))) = length (s_objs (fst x)).
  Proof. intros post [st [id|l|e]] H; cbn; auto. Qed.

  (* how one call changes the LMTP recipient list: not at all, emptied, or (rcptto(a) that
     returned object n) extended by (a, n) *)
  Definition rc_step (o : op) (n : nat) (rc rc' : list (list N * nat)) (res : result) : Prop :=
    rc' = rc \/ rc' = []%list \/
    exists a, o = ORcpt a /\ res = RObj n /\ rc' = (rc ++ [(a, n)])%list.

  (* what the post-action of a method whose command_method returned slot n (command cmd, kind
     k, already read if fl) may do: it keeps the invariant, the heap size and the class, and
     changes the recipient list in one of these ways *)
  Definition post_ok (o : op) (cmd : bytes) (k : kind) (fl : bool) (post : nat -> cstate -> cstate) : Prop :=
    (forall id st, length (s_objs (post id st)) = length (s_objs st)) /\
    forall st f n,
      Inv st f -> length (s_objs st) = S n -> okc (get_obj st n) = (cmd, k) ->
      (fl = true -> f = S n /\ good n = true) ->
      Inv (post n st) f /\ s_lmtp (post n st) = s_lmtp st /\
      rc_step o n (s_rcpttos st) (s_rcpttos (post n st)) (RObj n).

  Lemma cl_post_id : forall o cmd k fl, post_ok o cmd k fl (fun _ st => st).
  Proof. split; [reflexivity|]. unfold rc_step. auto. Qed.

  Lemma cl_post_hello : forall o verb, post_ok o verb KNoEsc true (hello_post udigit uspace).
  Proof.
    intros o verb. split.
    - intros id st. unfold hello_post. destruct (beqb _ C250); [|apply cl_upd_length].
      destruct (parse_string uspace _). destruct (s_lmtp st); apply cl_upd_length.
    - intros st f n I Hl Hoc Hfl. destruct (Hfl eq_refl) as [-> Hg].
      split; [apply cl_hello_post_inv; [exact I|lia|exact (f_equal snd Hoc)|exact Hg]|].
      unfold hello_post, rc_step.
      destruct (beqb _ C250); [destruct (parse_string uspace _); destruct (s_lmtp st) eqn:E|]; cbn; auto.
  Qed.

  Lemma cl_post_rcpt : forall a k fl, post_ok (ORcpt a) RCPT k fl (add_rcpt a).
  Proof.
    intros a k fl. split; [intros; unfold add_rcpt; destruct (s_lmtp _); reflexivity|].
    intros st f n I Hl Hoc _. unfold add_rcpt, rc_step. destruct (s_lmtp st) eqn:E; [|auto].
    split; [apply cl_inv_add_rcpt; [exact I|lia|exact (f_equal fst Hoc)]|]. cbn. eauto 8.
  Qed.

  Lemma cl_post_rset : forall o cmd k fl, post_ok o cmd k fl clear_rcpts.
  Proof.
    intros o cmd k fl. split; [intros; unfold clear_rcpts; destruct (s_lmtp _); reflexivity|].
    intros st f n I _ _ _. unfold clear_rcpts, rc_step. destruct (s_lmtp st) eqn:E; [|auto].
    split; [apply cl_inv_clear_rcpttos, I|]. cbn. auto.
  Qed.

  (* every call on a live client is of one of three forms *)
  Lemma cl_step_cases : forall P : op -> cstate -> cstate * result -> Prop,
    (forall o st e, e = XEncode \/ e = XNotImpl -> P o st (st, RExn e)) ->
    (forall o st cmd k w fl post, k <> KHello -> post_ok o cmd k fl post ->
        P o st (on_obj post (command_method udigit uspace cmd k w fl st))) ->
    (forall o st w, s_lmtp st = true -> P o st (lmtp_data udigit uspace w st)) ->
    forall o st, s_dead st = false -> P o st (step udigit uspace o st).
  Proof.
    intros P Hx Hm Hd o st Hdead.
    assert (Hc : forall cmd k w fl, k <> KHello -> P o st (command_method udigit uspace cmd k w fl st)).
    { intros cmd k w fl Hk. rewrite <- (cl_on_obj_id (command_method _ _ _ _ _ _ _)).
      exact (Hm _ _ _ _ _ _ _ Hk (cl_post_id _ _ _ _)). }
    assert (Hh : forall verb w,
               P o st (on_obj (hello_post udigit uspace) (command_method udigit uspace verb KNoEsc w true st)))
      by (intros; apply Hm; [discriminate|apply cl_post_hello]).
    unfold step. rewrite Hdead.
    destruct o; try (apply Hc; discriminate).
    - destruct (s_lmtp st); [apply Hx; auto|]. unfold hello_method.
      destruct (enc_ascii a); [exact (Hh _ _)|apply Hx; auto].
    - destruct (s_lmtp st); [apply Hx; auto|].
      destruct (enc_ascii a); [apply Hc; discriminate|apply Hx; auto].
    - destruct (s_lmtp st); [|apply Hx; auto]. unfold hello_method.
      destruct (enc_ascii a); [exact (Hh _ _)|apply Hx; auto].
    - destruct (mail_command st addr size auth); [apply Hc; discriminate|apply Hx; auto].
    - destruct (encode st addr); [|apply Hx; auto].
      exact (Hm _ _ _ KPlain _ _ (add_rcpt addr) ltac:(discriminate) (cl_post_rcpt _ _ _)).
    - destruct (s_lmtp st) eqn:E; [apply Hd, E|apply Hc; discriminate].
    - destruct (s_lmtp st) eqn:E; [apply Hd, E|apply Hc; discriminate].
    - exact (Hm _ _ _ KPlain _ _ clear_rcpts ltac:(discriminate) (cl_post_rset _ _ _ _)).
  Qed.

  Lemma cl_command_method_shape : forall cmd k w fl st,
    let st' := fst (command_method udigit uspace cmd k w fl st) in
    let n := length (s_objs st) in
    s_lmtp st' = s_lmtp st /\ s_rcpttos st' = s_rcpttos st /\
    length (s_objs st') = S n /\ okc (get_obj st' n) = (cmd, k).
  Proof.
    intros cmd k w fl st. unfold command_method, new_slot. cbv beta iota zeta.
    match goal with |- context [buffered_send w ?x] => set (st2 := buffered_send w x) end.
    assert (H2 : s_lmtp st2 = s_lmtp st /\ s_rcpttos st2 = s_rcpttos st /\
                 length (s_objs st2) = S (length (s_objs st)) /\
                 okc (get_obj st2 (length (s_objs st))) = (cmd, k)).
    { repeat split; [cbn; rewrite app_length; cbn; lia|].
      unfold get_obj. cbn [st2 buffered_send set_send set_queue set_objs s_objs].
      rewrite app_nth2, Nat.sub_diag by lia. reflexivity. }
    destruct fl; [|exact H2].
    destruct (cl_shape_inv _ _ (cl_flush_shape st2)) as (Hlm & Hrc & Hl & Hoc).
    destruct (flush udigit uspace st2) as [st3 [e|]]; cbn [fst] in *; rewrite Hlm, Hrc, Hl, Hoc; exact H2.
  Qed.

  Lemma cl_lmtp_slots_len : forall rs st acc,
    length (s_objs st) <= length (s_objs (fst (lmtp_slots rs st acc))).
  Proof.
    induction rs as [|[a rid] rs IH]; intros st acc; [cbn; lia|].
    cbn [lmtp_slots]. destruct (r_code (o_r (get_obj st rid))) as [|k c]; [apply IH|].
    destruct (k =? 50)%N; [|apply IH].
    eapply Nat.le_trans; [|apply IH]. cbn. rewrite app_length. cbn. lia.
  Qed.

  Lemma cl_lmtp_data_len : forall w st,
    length (s_objs st) <= length (s_objs (fst (lmtp_data udigit uspace w st))).
  Proof.
    intros. unfold lmtp_data.
    destruct (cl_shape_inv _ _ (cl_flush_shape st)) as (_ & _ & H0 & _).
    destruct (flush udigit uspace st) as [st0 [e|]]; cbn [fst] in *; [lia|].
    pose proof (cl_lmtp_slots_len (s_rcpttos st0) st0 []%list) as H1.
    destruct (lmtp_slots (s_rcpttos st0) st0 []%list) as [st1 ret]; cbn [fst] in *.
    match goal with |- context [pipelining ?x] => set (st2 := x) end.
    assert (H2 : length (s_objs st2) = length (s_objs st1)) by reflexivity.
    destruct (pipelining st2); [cbn [fst]; lia|].
    destruct (cl_shape_inv _ _ (cl_flush_shape st2)) as (_ & _ & H3 & _).
    destruct (flush udigit uspace st2) as [st3 [e|]]; cbn [fst] in *; lia.
  Qed.

  Lemma cl_step_mono : forall o st,
    length (s_objs st) <= length (s_objs (fst (step udigit uspace o st))).
  Proof.
    intros o st. destruct (s_dead st) eqn:Hd; [unfold step; rewrite Hd; cbn; lia|].
    revert o st Hd.
    apply (cl_step_cases (fun o st x => length (s_objs st) <= length (s_objs (fst x)))).
    - intros. cbn. lia.
    - intros o st cmd k w fl post _ [Hp _]. rewrite cl_on_obj_len by exact Hp.
      destruct (cl_command_method_shape cmd k w fl st) as (_ & _ & -> & _). lia.
    - intros. apply cl_lmtp_data_len.
  Qed.

  Lemma cl_run_mono : forall ops st,
    length (s_objs st) <= length (s_objs (fst (run udigit uspace ops st))).
  Proof.
    induction ops as [|o ops IH]; intros st; [cbn; lia|].
    cbn [run]. pose proof (cl_step_mono o st) as H1.
    destruct (step udigit uspace o st) as [st1 r]. specialize (IH st1).
    destruct (run udigit uspace ops st1) as [st2 rs]. cbn [fst] in *. lia.
  Qed.

  Lemma cl_command_method_inv : forall cmd k w fl st f,
    Inv st f -> k <> KHello ->
    let x := command_method udigit uspace cmd k w fl st in
    length (s_objs (fst x)) <= length script ->
    exists f', Inv (fst x) f' /\
      match snd x with
      | RObj id => id = length (s_objs st) /\ (fl = true -> f' = S id /\ good id = true)
      | RPairs _ => False
      | RExn e => e = XBadReply /\ has_bad
      end.
  Proof.
    intros cmd k w fl st f I Hk x. subst x.
    destruct (cl_command_method_shape cmd k w fl st) as (_ & _ & -> & _).
    unfold command_method, new_slot. cbv beta iota zeta.
    match goal with |- context [buffered_send w ?x] => set (st2 := buffered_send w x) end.
    assert (I2 : Inv st2 f).
    { eapply cl_inv_same; [exact (cl_new_slot_inv cmd k st f Hk I)|reflexivity..]. }
    assert (L2 : length (s_objs st2) = S (length (s_objs st))) by (cbn; rewrite app_length; cbn; lia).
    intros Hlen. destruct fl; [|exists f; split; [exact I2|split; [reflexivity|discriminate]]].
    destruct (cl_flush_inv st2 f I2) as (f' & I3 & Hout); [lia|].
    destruct (flush udigit uspace st2) as [st3 [e|]]; exists f'; (split; [exact I3|]); [exact Hout|].
    destruct Hout as [-> Hall]. split; [reflexivity|]. intros _. split; [exact L2|].
    apply Hall. pose proof (I_fle _ _ I). lia.
  Qed.

  (* what the result of a call says of the Reply objects it made: one object, the next; pairs
     owning the next objects in order; none, and nothing done, for UnicodeEncodeError and
     NotImplementedError; BadReply only if the script holds an undecodable reply.  (_gen, here as in result_ok_gen: for every
     script, undecodable replies included.) *)
  Definition res_gen (st st' : cstate) (res : result) : Prop :=
    let n := length (s_objs st) in
    let n' := length (s_objs st') in
    match res with
    | RObj id => id = n /\ n' = S n
    | RPairs l => map snd l = seq n (length l) /\ n' = n + length l
    | RExn XEncode => st' = st
    | RExn XNotImpl => st' = st
    | RExn XBadReply => n <= n' /\ has_bad
    | RExn _ => False
    end.

  (* a call keeps the invariant, provided the server has scripted a reply for every
     reply-owing command issued so far *)
  Definition step_ok (o : op) (st : cstate) (x : cstate * result) : Prop :=
    forall f, Inv st f -> length (s_objs (fst x)) <= length script ->
    exists f', Inv (fst x) f' /\ res_gen st (fst x) (snd x) /\ s_lmtp (fst x) = s_lmtp st /\
               rc_step o (length (s_objs st)) (s_rcpttos st) (s_rcpttos (fst x)) (snd x).

  Lemma cl_method_ok : forall o st cmd k w fl post,
    k <> KHello -> post_ok o cmd k fl post ->
    step_ok o st (on_obj post (command_method udigit uspace cmd k w fl st)).
  Proof.
    intros o st cmd k w fl post Hk [Hpl Hp] f I. rewrite cl_on_obj_len by exact Hpl. intros Hlen.
    destruct (cl_command_method_shape cmd k w fl st) as (Hlm & Hrc & Hl & Hoc).
    destruct (cl_command_method_inv cmd k w fl st f I Hk Hlen) as (f' & I1 & Hout).
    unfold res_gen.
    destruct (command_method udigit uspace cmd k w fl st) as [st1 [id|l|e]];
      cbn [fst snd on_obj] in *; [|contradiction|]; exists f'.
    - destruct Hout as [-> Hfl]. destruct (Hp st1 f' _ I1 Hl Hoc Hfl) as (I' & Hlm' & Hrc').
      rewrite Hpl, Hl, <- Hrc. split; [exact I'|]. split; [auto|]. split; [congruence|exact Hrc'].
    - destruct Hout as [-> Hb]. rewrite Hl. split; [exact I1|]. split; [auto|]. split; [exact Hlm|].
      left. exact Hrc.
  Qed.

  (* the recipients whose RCPT reply was decodable and of class 2: those data() queues a slot for *)
  Definition accepted (rs : list (list N * nat)) : list (list N * nat) :=
    filter (fun p => good (snd p) && class2 (fst (scr (snd p)))) rs.

  Lemma cl_lmtp_slots_gen : forall rs st acc f,
    Inv st f -> Forall (fun p => snd p < f) rs ->
    exists st1,
      lmtp_slots rs st acc =
        (st1, (acc ++ number (length (s_objs st)) (map fst (accepted rs)))%list) /\
      Inv st1 f /\
      length (s_objs st1) = length (s_objs st) + length (accepted rs) /\
      s_lmtp st1 = s_lmtp st.
  Proof.
    induction rs as [|[a rid] rs IH]; intros st acc f I Hrs.
    - exists st. cbn. rewrite app_nil_r, Nat.add_0_r. auto.
    - inversion Hrs as [|? ? Hrid Hrs']; subst. cbn [snd] in Hrid.
      cbn [lmtp_slots]. unfold accepted. cbn [filter snd]. fold (accepted rs).
      rewrite (cl_inv_code st f rid I Hrid).
      destruct (good rid); cbn [andb]; [|apply IH; assumption].
      destruct (fst (scr rid)) as [|d c]; cbn [class2]; [apply IH; assumption|].
      destruct (d =? 50)%N; [|apply IH; assumption].
      pose proof (cl_new_slot_inv SEND_DATA KPlain st f ltac:(discriminate) I) as I1.
      unfold new_slot in *. cbv beta iota zeta in *. cbn [fst] in I1.
      match type of I1 with Inv ?s _ => set (st1 := s) in * end.
      assert (El : length (s_objs st1) = S (length (s_objs st))) by (cbn; rewrite app_length; cbn; lia).
      destruct (IH st1 (acc ++ [(a, length (s_objs st))])%list f I1 Hrs') as (st2 & Hsl & I2 & Hl2 & Hlm).
      exists st2. rewrite Hsl, El. cbn [map fst number length]. rewrite <- app_assoc. cbn [app].
      split; [reflexivity|]. split; [exact I2|]. split; [lia|exact Hlm].
  Qed.

  (* lmtp_data: the accepted recipients paired with fresh objects and the list emptied; or
     BadReply from its first flush (nothing done yet) or from its second (slots made, list emptied) *)
  Definition lmtp_out (st st' : cstate) (res : result) : Prop :=
    let n := length (s_objs st) in
    let acc := accepted (s_rcpttos st) in
    (res = RPairs (number n (map fst acc)) /\
     length (s_objs st') = n + length acc /\ s_rcpttos st' = []%list) \/
    (res = RExn XBadReply /\ has_bad /\
     ((s_rcpttos st' = s_rcpttos st /\ length (s_objs st') = n) \/
      (s_rcpttos st' = []%list /\ length (s_objs st') = n + length acc))).

  Lemma cl_lmtp_data_gen : forall w st f,
    Inv st f ->
    let x := lmtp_data udigit uspace w st in
    length (s_objs (fst x)) <= length script ->
    exists f', Inv (fst x) f' /\ s_lmtp (fst x) = s_lmtp st /\ lmtp_out st (fst x) (snd x).
  Proof.
    intros w st f I x Hlen. subst x. unfold lmtp_out.
    pose proof (cl_lmtp_data_len w st) as Hmono. unfold lmtp_data in *.
    destruct (cl_shape_inv _ _ (cl_flush_shape st)) as (Hlm0 & Hrc0 & Hl0 & _).
    destruct (cl_flush_inv st f I) as (f0 & I0 & Hout0); [lia|].
    destruct (flush udigit uspace st) as [st0 [e0|]]; cbn [fst snd] in *.
    { destruct Hout0 as [-> Hb]. exists f0. auto 8. }
    destruct Hout0 as [-> _].
    destruct (cl_lmtp_slots_gen (s_rcpttos st0) st0 []%list _ I0) as (st1 & Hsl & I1 & Hl1 & Hlm1).
    { pose proof (I_rcpt _ _ I0) as Ir. rewrite Hl0 in Ir.
      eapply Forall_impl; [|exact Ir]. intros p Hp. apply Hp. }
    rewrite Hsl in *. rewrite Hl0, Hrc0 in *. cbn [app] in *.
    apply cl_inv_clear_rcpttos in I1.
    set (st2 := buffered_send w (set_rcpttos st1 []%list)) in *.
    assert (I2 : Inv st2 (length (s_objs st))) by (eapply cl_inv_same; [exact I1|reflexivity..]).
    change (length (s_objs st1)) with (length (s_objs st2)) in Hl1.
    change (s_lmtp st1) with (s_lmtp st2) in Hlm1.
    destruct (pipelining st2).
    - cbn [fst snd]. exists (length (s_objs st)). split; [exact I2|]. split; [congruence|]. left. auto.
    - destruct (cl_shape_inv _ _ (cl_flush_shape st2)) as (Hlm3 & Hrc3 & Hl3 & _).
      destruct (cl_flush_inv st2 _ I2) as (f3 & I3 & Hout3).
      { rewrite <- Hl3. destruct (flush udigit uspace st2) as [? [?|]]; exact Hlen. }
      destruct (flush udigit uspace st2) as [st3 [e3|]]; cbn [fst snd] in *;
        exists f3; (split; [exact I3|]); (split; [congruence|]); rewrite Hl3, Hrc3, Hl1.
      + destruct Hout3 as [-> Hb]. right. auto 6.
      + left. auto.
  Qed.

  Lemma cl_lmtp_data_ok : forall o st w, step_ok o st (lmtp_data udigit uspace w st).
  Proof.
    intros o st w f I Hlen.
    destruct (cl_lmtp_data_gen w st f I Hlen) as (f' & I1 & Hlm & Hout).
    exists f'. split; [exact I1|]. unfold rc_step, res_gen.
    destruct (lmtp_data udigit uspace w st) as [st' res]. cbn [fst snd] in *.
    destruct Hout as [(-> & Hl1 & Hrc)|(-> & Hb & Hrc)].
    - rewrite cl_number_snd, Hl1.
      rewrite <- (map_length snd (number _ _)), cl_number_snd, seq_length, !map_length. auto.
    - split; [split; [destruct Hrc as [[_ ->]|[_ ->]]; lia|exact Hb]|]. split; [exact Hlm|].
      destruct Hrc as [[? _]|[? _]]; auto.
  Qed.

  Lemma cl_step_gen : forall o st, s_dead st = false -> step_ok o st (step udigit uspace o st).
  Proof.
    apply cl_step_cases.
    - intros o st e He f I _. exists f. unfold rc_step. destruct He; subst e; cbn; auto.
    - intros. apply cl_method_ok; assumption.
    - intros o st w _. apply cl_lmtp_data_ok.
  Qed.

  (* the objects l handed out while the heap grew from n to n': increasing, among n .. n'-1, and
     all of these when every reply is decodable *)
  Definition handed (n n' : nat) (l : list nat) : Prop :=
    StronglySorted lt l /\ Forall (fun i => n <= i < n') l /\ n <= n' /\
    (~ has_bad -> exists k, l = seq n k /\ n' = n + k).

  Lemma cl_handed_app : forall n m n' a b, handed n m a -> handed m n' b -> handed n n' (a ++ b).
  Proof.
    intros n m n' a b (S1 & B1 & L1 & E1) (S2 & B2 & L2 & E2). split; [|split; [|split]].
    - apply (cl_sorted_app _ _ m); try assumption; (eapply Forall_impl; [|eassumption]); cbn; intros; lia.
    - apply Forall_app. split; (eapply Forall_impl; [|eassumption]); cbn; intros; lia.
    - lia.
    - intros Hnb. destruct (E1 Hnb) as (k1 & -> & ->). destruct (E2 Hnb) as (k2 & -> & ->).
      exists (k1 + k2). split; [symmetry; apply seq_app|lia].
  Qed.

  Lemma cl_handed_seq : forall n k, handed n (n + k) (seq n k).
  Proof.
    intros n k. destruct (cl_seq_sorted k n) as [H1 H2].
    split; [exact H1|]. split; [exact H2|]. split; [lia|]. exists k. auto.
  Qed.

  Lemma cl_handed_nil : forall n, handed n n []%list.
  Proof. intros n. rewrite <- (Nat.add_0_r n) at 2. apply (cl_handed_seq n 0). Qed.

  Lemma cl_res_gen_ids : forall st st' r, res_gen st st' r ->
    handed (length (s_objs st)) (length (s_objs st')) (result_ids r) /\
    result_ok_gen r /\ (~ has_bad -> result_ok r).
  Proof.
    intros st st' r H. destruct r as [id|l|e]; cbn in *.
    - destruct H as [-> ->]. rewrite <- Nat.add_1_r. split; [apply (cl_handed_seq _ 1)|auto].
    - destruct H as [-> ->]. split; [apply cl_handed_seq|auto].
    - destruct e; try contradiction.
      + subst st'. split; [apply cl_handed_nil|auto].
      + subst st'. split; [apply cl_handed_nil|auto].
      + destruct H as [Hle Hb]. split; [|split; [exact I|intros Hnb; exact (Hnb Hb)]].
        split; [constructor|]. split; [constructor|]. split; [exact Hle|]. intros Hnb. destruct (Hnb Hb).
  Qed.

  Lemma cl_run_gen : forall ops st f st' results,
    Inv st f ->
    StronglySorted lt (map snd (s_rcpttos st)) ->
    run udigit uspace ops st = (st', results) ->
    length (s_objs st') <= length script ->
    exists f', Inv st' f' /\
      handed (length (s_objs st)) (length (s_objs st')) (flat_map result_ids results) /\
      Forall result_ok_gen results /\ (~ has_bad -> Forall result_ok results) /\
      s_lmtp st' = s_lmtp st /\
      StronglySorted lt (map snd (s_rcpttos st')) /\
      Forall (fun p => In p (s_rcpttos st) \/ from_call ops results p) (s_rcpttos st').
  Proof.
    induction ops as [|o ops IH]; intros st f st' results I Hsort H Hlen.
    - cbn in H. inversion H; subst. exists f. cbn.
      split; [exact I|]. split; [apply cl_handed_nil|].
      split; [constructor|]. split; [constructor|]. split; [reflexivity|]. split; [exact Hsort|].
      apply Forall_forall. intros p Hp. left. exact Hp.
    - cbn [run] in H. destruct (step udigit uspace o st) as [st1 r] eqn:Es.
      destruct (run udigit uspace ops st1) as [st2 rs] eqn:Er. inversion H; subst st' results. clear H.
      pose proof (cl_run_mono ops st1) as Hm. rewrite Er in Hm. cbn [fst] in Hm.
      destruct (cl_step_gen o st (I_dead _ _ I) f I) as (f1 & I1 & Hres & Hlm1 & Hrc);
        rewrite Es in *; cbn [fst snd] in *; [lia|].
      destruct (cl_res_gen_ids _ _ _ Hres) as (Hh1 & Hok1 & Hnb1).
      assert (Hsort1 : StronglySorted lt (map snd (s_rcpttos st1))).
      { destruct Hrc as [->|[->|(a & _ & _ & ->)]]; [assumption|constructor|].
        rewrite map_app. apply (cl_sorted_app _ _ (length (s_objs st))); [assumption|repeat constructor| |repeat constructor].
        pose proof (I_rcpt _ _ I) as Ir. rewrite Forall_map.
        eapply Forall_impl; [|exact Ir]. intros p (Hp & _). exact Hp. }
      destruct (IH st1 f1 st2 rs I1 Hsort1 Er Hlen) as (f2 & I2 & Hh2 & Hok2 & Hnb2 & Hlm2 & Hsort2 & Hhist).
      exists f2. split; [exact I2|]. split; [exact (cl_handed_app _ _ _ _ _ Hh1 Hh2)|].
      split; [constructor; assumption|]. split; [intros Hnb; constructor; auto|].
      split; [congruence|]. split; [exact Hsort2|].
      eapply Forall_impl; [|exact Hhist]. intros p [Hin|(k & Hk1 & Hk2)].
      + destruct Hrc as [E|[E|(a & -> & -> & E)]]; rewrite E in Hin.
        * left. exact Hin.
        * destruct Hin.
        * apply in_app_or in Hin. destruct Hin as [Hin|[<-|[]]]; [left; exact Hin|].
          right. exists 0. cbn. auto.
      + right. exists (S k). cbn. auto.
  Qed.

  Lemma cl_reach : forall lmtp exts0 ops chunks st results,
    nonempty_chunks chunks -> (concat chunks = wire script ++ extra)%list ->
    run udigit uspace ops (init lmtp exts0 chunks) = (st, results) ->
    length (s_objs st) <= length script ->
    let n := length (s_objs st) in
    Inv st (n - length (s_queue st)) /\
    StronglySorted lt (flat_map result_ids results) /\
    Forall (fun i => i < n) (flat_map result_ids results) /\
    Forall result_ok_gen results /\
    (~ has_bad -> flat_map result_ids results = seq 0 n /\ Forall result_ok results) /\
    s_lmtp st = lmtp /\
    StronglySorted lt (map snd (s_rcpttos st)) /\
    Forall (from_call ops results) (s_rcpttos st).
  Proof.
    intros lmtp exts0 ops chunks st results Hc Hs Hrun Hlen n.
    assert (I0 : Inv (init lmtp exts0 chunks) 0).
    { constructor; try reflexivity; try (intros j Hj; cbn in Hj; lia); try constructor; try (cbn; lia).
      - cbn [init s_rbuf s_chunks app]. rewrite Hs. reflexivity.
      - exact Hc. }
    destruct (cl_run_gen ops _ 0 st results I0 ltac:(constructor) Hrun Hlen)
      as (f & I & (Hsort & Hb & _ & Hall) & Hok & Hnb & Hlm & Hrs & Hhist).
    cbn [init s_objs length s_lmtp s_rcpttos] in *.
    replace (n - length (s_queue st)) with f
      by (rewrite (I_queue _ _ I), seq_length; pose proof (I_fle _ _ I); lia).
    split; [exact I|]. split; [exact Hsort|].
    split; [eapply Forall_impl; [|exact Hb]; cbn; intros a Ha; apply Ha|].
    split; [exact Hok|]. split; [intros Hb'; destruct (Hall Hb') as (k & -> & Hk); split; [f_equal; symmetry; exact Hk|auto]|].
    split; [exact Hlm|]. split; [exact Hrs|].
    eapply Forall_impl; [|exact Hhist]. intros p [[]|H]. exact H.
  Qed.

  Lemma cl_reach_step : forall lmtp exts0 ops chunks st results o st' res,
    nonempty_chunks chunks -> (concat chunks = wire script ++ extra)%list ->
    run udigit uspace ops (init lmtp exts0 chunks) = (st, results) ->
    step udigit uspace o st = (st', res) ->
    length (s_objs st') <= length script ->
    exists f', Inv st' f' /\ res_gen st st' res.
  Proof.
    intros lmtp exts0 ops chunks st results o st' res Hc Hs Hrun Hstep Hlen.
    pose proof (cl_step_mono o st) as Hm. rewrite Hstep in Hm. cbn [fst] in Hm.
    destruct (cl_reach _ _ _ _ _ _ Hc Hs Hrun) as (I & _); [lia|].
    destruct (cl_step_gen o st (I_dead _ _ I) _ I) as (f' & I' & Hres & _);
      rewrite Hstep in *; [exact Hlen|]. eauto.
  Qed.

  Lemma cl_lmtp_reach : forall exts0 ops chunks st results o st' res,
    nonempty_chunks chunks -> (concat chunks = wire script ++ extra)%list ->
    run udigit uspace ops (init true exts0 chunks) = (st, results) ->
    (o = OSendEmpty \/ exists payload, o = OSendData payload) ->
    step udigit uspace o st = (st', res) ->
    length (s_objs st') <= length script ->
    let n := length (s_objs st) in
    lmtp_out st st' res /\ n <= length script /\
    StronglySorted lt (map snd (s_rcpttos st)) /\
    Forall (fun p => from_call ops results p /\ snd p < n /\
                     o_cmd (nth (snd p) (s_objs st) dummy_obj) = bs "RCPT") (s_rcpttos st).
  Proof.
    intros exts0 ops chunks st results o st' res Hc Hs Hrun Ho Hstep Hlen n.
    pose proof (cl_step_mono o st) as Hm. rewrite Hstep in Hm. cbn [fst] in Hm.
    assert (Hlen0 : n <= length script) by (subst n; lia).
    destruct (cl_reach _ _ _ _ _ _ Hc Hs Hrun Hlen0) as (I & _ & _ & _ & _ & Hlm & Hsort & Hhist).
    assert (Hd : exists w, lmtp_data udigit uspace w st = (st', res)).
    { unfold step in Hstep. rewrite (I_dead _ _ I), Hlm in Hstep.
      destruct Ho as [->|[payload ->]]; eauto. }
    destruct Hd as [w Hd].
    pose proof (cl_lmtp_data_gen w st _ I) as Hout. rewrite Hd in Hout.
    destruct (Hout Hlen) as (_ & _ & _ & Hout').
    split; [exact Hout'|]. split; [exact Hlen0|]. split; [exact Hsort|].
    pose proof (I_rcpt _ _ I) as Ir. rewrite Forall_forall in *. intros p Hp.
    destruct (Ir p Hp) as [H1 H2]. auto.
  Qed.

  (* what the invariant says of the final state, in the words of prop/C10.v *)
  Lemma cl_inv_read : forall st f, Inv st f ->
    let n := length (s_objs st) in
    s_queue st = seq f (n - f) /\
    (forall j, j < n ->
      o_r (nth j (s_objs st) dummy_obj) =
        if (j <? f) && wf_reply (nth j script dflt)
        then filled udigit uspace (o_kind (nth j (s_objs st) dummy_obj)) (nth j script dflt)
        else unfilled (o_kind (nth j (s_objs st) dummy_obj))) /\
    (s_rbuf st ++ concat (s_chunks st) = wire (skipn f script) ++ extra)%list /\
    nonempty_chunks (s_chunks st) /\ s_dead st = false.
  Proof.
    intros st f [Id Iq Ifl Ifs Is Ic Ifi Iun Ir] n. repeat (split; [assumption|]).
    split; [|auto]. intros j Hj. destruct (Nat.ltb_spec j f) as [E|E]; cbn [andb].
    - exact (Ifi j E).
    - apply Iun. split; assumption.
  Qed.
End Pairing.

Lemma cl_wf_all_ok : forall script, forallb wf_reply script = true -> forallb script_ok script = true.
Proof.
  intros script H. rewrite forallb_forall in *. intros r Hr. unfold script_ok. rewrite (H r Hr). reflexivity.
Qed.

Lemma cl_wf_good : forall script j, forallb wf_reply script = true -> j < length script -> good script j = true.
Proof. intros script j H Hj. rewrite forallb_forall in H. apply H, nth_In, Hj. Qed.

Lemma cl_wf_no_bad : forall script, forallb wf_reply script = true -> ~ has_bad script.
Proof. intros script H (j & Hj & Hb). rewrite (cl_wf_good script j H Hj) in Hb. discriminate. Qed.

Lemma cl_accepted_wf : forall script n rs,
  forallb wf_reply script = true -> n <= length script -> Forall (fun p => snd p < n) rs ->
  accepted script rs = filter (fun p => class2 (fst (nth (snd p) script dflt))) rs.
Proof.
  intros script n rs H Hn Hrs. apply filter_ext_in. intros p Hp. rewrite Forall_forall in Hrs.
  rewrite (cl_wf_good script (snd p) H) by (specialize (Hrs p Hp); lia). reflexivity.
Qed.

Lemma cl_inv_read_wf : forall udigit uspace script extra st f,
  forallb wf_reply script = true -> Inv udigit uspace script extra st f ->
  let n := length (s_objs st) in
  s_queue st = seq f (n - f) /\
  forall j, j < n ->
    o_r (nth j (s_objs st) dummy_obj) =
      if j <? f then filled udigit uspace (o_kind (nth j (s_objs st) dummy_obj)) (nth j script dflt)
      else unfilled (o_kind (nth j (s_objs st) dummy_obj)).
Proof.
  intros udigit uspace script extra st f H I n.
  destruct (cl_inv_read _ _ _ _ _ _ I) as (Hq & Ho & _). split; [exact Hq|].
  intros j Hj. rewrite (Ho j Hj). destruct (Nat.ltb_spec j f) as [E|E]; [|reflexivity].
  change (wf_reply (nth j script dflt)) with (good script j).
  rewrite cl_wf_good; [reflexivity|exact H|]. pose proof (I_fscript _ _ _ _ _ _ I). lia.
Qed.

(* the hypotheses of the theorems are satisfiable, on a non-trivial case:
   banner, EHLO advertising PIPELINING, MAIL + two RCPT pipelined (the second
   address is not encodable and raises before anything is queued), DATA flushes;
   a five-line multi-reply script delivered byte by byte plus an unsolicited
   extra reply that must stay unread. *)
Definition ex_udigit (c : N) : bool := ((48 <=? c) && (c <=? 57))%N.
Definition ex_uspace (c : N) : bool := (c =? 32)%N.
Definition ex_script : list sreply :=
  [(bs "220", [bs "mx ESMTP"]);
   (bs "250", [bs "mx greets you"; bs "PIPELINING"; bs "8BITMIME"]);
   (bs "250", [bs "2.1.0 sender ok"]);
   (bs "550", [bs "5.1.1 no such"; bs "user"]);
   (bs "354", [bs "go ahead"])].
Definition ex_extra : bytes := bs "250 unsolicited".
Definition ex_chunks : list bytes := map (fun b => [b]) (wire ex_script ++ ex_extra).
Definition ex_ops : list op :=
  [OBanner; OEhlo (bs "client"); OMail (bs "a@b") None None; ORcpt (bs "r1@c");
   ORcpt [233%N; 64%N; 120%N]; OData].

Example cl_example_hypotheses :
  forallb wf_reply ex_script = true /\
  forallb (fun c => match c with [] => false | _ => true end) ex_chunks = true /\
  concat ex_chunks = (wire ex_script ++ ex_extra)%list /\
  let '(st, results) := run ex_udigit ex_uspace ex_ops (init false [] ex_chunks) in
  results = [RObj 0; RObj 1; RObj 2; RObj 3; RExn XEncode; RObj 4]%nat /\
  (length (s_objs st) <= length ex_script)%nat /\
  s_queue st = [] /\ s_rbuf st = [] /\ concat (s_chunks st) = ex_extra /\
  map (fun o => (r_code (o_r o), get_message (o_r o))) (s_objs st) =
    [(bs "220", bs "mx ESMTP"); (bs "250", bs "mx greets you"); (bs "250", bs "2.1.0 sender ok");
     (bs "550", (bs "5.1.1 no such" ++ [13; 10]%N ++ bs "user")%list); (bs "354", bs "go ahead")].
Proof. vm_compute. repeat split; reflexivity. Qed.

(* LMTP: three recipients, the second rejected; end-of-data replies pair with the 1st and 3rd *)
Definition ex_lscript : list sreply :=
  [(bs "250", [bs "lmtp"; bs "PIPELINING"]); (bs "250", [bs "ok"]);
   (bs "250", [bs "r1 ok"]); (bs "550", [bs "r2 no"]); (bs "250", [bs "r3 ok"]);
   (bs "354", [bs "go"]); (bs "250", [bs "delivered r1"]); (bs "452", [bs "r3 over quota"])].
Definition ex_lops : list op :=
  [OLhlo (bs "client"); OMail (bs "a@b") None None; ORcpt (bs "r1"); ORcpt (bs "r2"); ORcpt (bs "r3"); OData].

Example cl_example_lmtp :
  forallb wf_reply ex_lscript = true /\
  let '(st, results) := run ex_udigit ex_uspace ex_lops (init true [] [wire ex_lscript]) in
  let '(st', res) := step ex_udigit ex_uspace OSendEmpty st in
  (length (s_objs st') <= length ex_lscript)%nat /\
  s_rcpttos st = [(bs "r1", 2); (bs "r2", 3); (bs "r3", 4)]%nat /\
  res = RPairs [(bs "r1", 6); (bs "r3", 7)]%nat.
Proof. vm_compute. repeat split; reflexivity. Qed.

(* hypotheses of C10_reply_consumed_exactly on a concrete multi-line reply cut mid-line,
   part of it already buffered *)
Example cl_example_reply :
  let code := bs "250" in let lines := [bs "first"; bs "second"] in
  forallb is_digit code = true /\ forallb no_lf lines = true /\
  (bs "250-fi" ++ concat [bs "rst"; [13; 10]%N; bs "250 second"; [13; 10; 50; 53]%N])%list =
    (emit_lines code lines ++ bs "25")%list /\
  recv_reply (bs "250-fi") [bs "rst"; [13; 10]%N; bs "250 second"; [13; 10; 50; 53]%N] =
    ROk code (join CRLF lines) (bs "25") [].
Proof. vm_compute. repeat split; reflexivity. Qed.

(* undecodable replies.  Hypotheses of C10_pairing_with_bad_replies on a concrete case:
   the reply to the first RCPT is ISO-8859-1 ("550 Empf\xe4nger unbekannt"); without
   PIPELINING rcptto() raises BadReply, the conversation continues and every later
   Reply holds its own reply; the bad reply's slot (object 3) stays empty. *)
Definition ex_bscript : list sreply :=
  [(bs "220", [bs "mx"]); (bs "250", [bs "mx"; bs "8BITMIME"]); (bs "250", [bs "ok"]);
   (bs "550", [(bs "Empf" ++ [228%N] ++ bs "nger unbekannt")%list]);
   (bs "250", [bs "r2 ok"]); (bs "354", [bs "go"]); (bs "250", [bs "queued"]); (bs "221", [bs "bye"])].
Definition ex_bops : list op :=
  [OBanner; OEhlo (bs "client"); OMail (bs "a@b") None None; ORcpt (bs "r1"); ORcpt (bs "r2");
   OData; OSendEmpty; OQuit].

Example cl_example_bad_reply :
  forallb script_ok ex_bscript = true /\ forallb wf_reply ex_bscript = false /\
  let '(st, results) := run ex_udigit ex_uspace ex_bops (init false [] (map (fun b => [b]) (wire ex_bscript))) in
  results = [RObj 0; RObj 1; RObj 2; RExn XBadReply; RObj 4; RObj 5; RObj 6; RObj 7]%nat /\
  (length (s_objs st) <= length ex_bscript)%nat /\ s_queue st = [] /\ s_rbuf st = [] /\ s_chunks st = [] /\
  map (fun o => r_code (o_r o)) (s_objs st) =
    [bs "220"; bs "250"; bs "250"; []; bs "250"; bs "354"; bs "250"; bs "221"].
Proof. vm_compute. repeat split; reflexivity. Qed.

(* Hypotheses of C10_lmtp_data_never_fails_on_unanswered_rcpt on the case of the fixed
   finding c10:lmtp-data-after-bad-rcpt-reply: LMTP with PIPELINING, the reply to the
   second RCPT is undecodable; data() raises the BadReply; send_empty_data() returns the
   pair for the first recipient only (object 5) and clears the recipient list. *)
Definition ex_fscript : list sreply :=
  [(bs "250", [bs "lmtp"; bs "PIPELINING"]); (bs "250", [bs "ok"]); (bs "250", [bs "r1 ok"]);
   (bs "550", [[228%N]]); (bs "354", [bs "go"]); (bs "250", [bs "x"]); (bs "250", [bs "y"])].
Definition ex_fops : list op :=
  [OLhlo (bs "client"); OMail (bs "a@b") None None; ORcpt (bs "r1"); ORcpt (bs "r2"); OData].

Example cl_example_lmtp_unanswered_rcpt :
  forallb script_ok ex_fscript = true /\
  let '(st, results) := run ex_udigit ex_uspace ex_fops (init true [] [wire ex_fscript]) in
  let '(st', res) := step ex_udigit ex_uspace OSendEmpty st in
  (length (s_objs st') <= length ex_fscript)%nat /\
  results = [RObj 0; RObj 1; RObj 2; RObj 3; RExn XBadReply]%nat /\
  s_rcpttos st = [(bs "r1", 2); (bs "r2", 3)]%nat /\
  res = RPairs [(bs "r1", 5)]%nat /\ s_queue st' = [5]%nat /\ s_rcpttos st' = [].
Proof. vm_compute. repeat split; try reflexivity; repeat constructor. Qed.
