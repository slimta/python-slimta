(* Proofs about model/Reply.v (C17; used by C06, C10 and the client).  Byte level first: the UTF-8
   codec; norm is what the line splitting of send_reply does; incremental parsing = batch parsing
   (inc_batch); written lines are read back exactly (emit_recv); what a call returns and consumes.
   Then Reply objects: ONE round trip, wire_roundtrip, about any object satisfying reply_inv -- those
   of C17 are its instances for Reply(code, text), an object after any setter operations, and lists. *)
From Coq Require Import List NArith Bool Lia ZifyBool.
From SV Require Import lib.Bytes model.Reply proof.List_lemmas proof.Bytes_lemmas proof.Arith_lemmas.
Import ListNotations.
Open Scope N_scope.

Lemma is_cont_digit : forall y, y < 64 -> is_cont (128 + y) = true.
Proof.
  intros y H. apply andb_true_intro. split; [apply N.leb_le, N.le_add_r|apply N.ltb_lt; lia].
Qed.

(* UTF-8 writes a code point in base 64: the lead byte carries the first digit, each continuation
   byte one more.  The decoder on such a sequence of 2, 3, 4 bytes: the first tests on the lead byte
   fail, the next one succeeds.  The tail is kept folded until then, or cbn runs the decoder on the
   continuation bytes as well. *)
Lemma utf8_dec_2 : forall x y c s, 2 <= x < 32 -> y < 64 -> x * 64 + y = c ->
  utf8_dec (192 + x :: 128 + y :: s) = ocons c (utf8_dec s).
Proof.
  intros x y c s Hx Hy E. set (s1 := 128 + y :: s). cbn [utf8_dec].
  rewrite 2 (fun k => proj2 (N.ltb_ge (192 + x) k)), (proj2 (N.ltb_lt (192 + x) 224)) by lia.
  subst s1. cbv iota. rewrite !is_cont_digit, !add_sub_l, E by assumption. reflexivity.
Qed.

Lemma utf8_dec_3 : forall x y z c s, x < 16 -> y < 64 -> z < 64 -> x * 4096 + y * 64 + z = c ->
  2048 <= c -> is_surrogate c = false ->
  utf8_dec (224 + x :: 128 + y :: 128 + z :: s) = ocons c (utf8_dec s).
Proof.
  intros x y z c s Hx Hy Hz E Hc Hs. set (s1 := 128 + y :: _). cbn [utf8_dec].
  rewrite 3 (fun k => proj2 (N.ltb_ge (224 + x) k)), (proj2 (N.ltb_lt (224 + x) 240)) by lia.
  subst s1. cbv iota.
  rewrite !is_cont_digit, !add_sub_l, E, Hs, (proj2 (N.leb_le _ _) Hc) by assumption. reflexivity.
Qed.

Lemma utf8_dec_4 : forall x y z w c s, y < 64 -> z < 64 -> w < 64 ->
  x * 262144 + y * 4096 + z * 64 + w = c -> 65536 <= c < 1114112 ->
  utf8_dec (240 + x :: 128 + y :: 128 + z :: 128 + w :: s) = ocons c (utf8_dec s).
Proof.
  intros x y z w c s Hy Hz Hw E [Hlo Hhi]. set (s1 := 128 + y :: _). cbn [utf8_dec].
  rewrite 4 (fun k => proj2 (N.ltb_ge (240 + x) k)), (proj2 (N.ltb_lt (240 + x) 245)) by lia.
  subst s1. cbv iota.
  rewrite !is_cont_digit, !add_sub_l, E, (proj2 (N.leb_le _ _) Hlo), (proj2 (N.ltb_lt _ _) Hhi) by assumption.
  reflexivity.
Qed.

Lemma utf8_dec_enc1 : forall c s, valid_cp c = true ->
  utf8_dec (utf8_enc1 c ++ s) = ocons c (utf8_dec s).
Proof.
  intros c s Hv. apply andb_true_iff in Hv. destruct Hv as [Hm Hs].
  apply N.ltb_lt in Hm. apply negb_true_iff in Hs.
  assert (M : forall x, x mod 64 < 64) by (intro x; apply N.mod_lt; discriminate).
  unfold utf8_enc1.
  destruct (N.ltb_spec c 128) as [L1|L1]; [cbn [app utf8_dec]; rewrite (proj2 (N.ltb_lt _ _) L1); reflexivity|].
  destruct (N.ltb_spec c 2048) as [L2|L2].
  { apply utf8_dec_2; [split; [apply N.div_le_lower_bound; [discriminate|exact L1]|apply (digits_lt 64 32), L2]
                      |apply M|apply digits_eq]. }
  destruct (N.ltb_spec c 65536) as [L3|L3].
  - apply utf8_dec_3; [apply (digits_lt 4096 16), L3|apply M|apply M|apply digits3|exact L2|exact Hs].
  - apply utf8_dec_4; [apply M|apply M|apply M|apply digits4|split; assumption].
Qed.

Definition valid_text (t : list N) : Prop := Forall (fun c => valid_cp c = true) t.

Lemma utf8_enc_cons : forall c t, utf8_enc (c :: t) = utf8_enc1 c ++ utf8_enc t.
Proof. reflexivity. Qed.

Lemma utf8_dec_enc : forall t, valid_text t -> utf8_dec (utf8_enc t) = Some t.
Proof.
  induction t as [|c t IH]; intro H; [reflexivity|].
  inversion H as [|? ? Hc Ht]; subst.
  rewrite utf8_enc_cons, utf8_dec_enc1, (IH Ht) by exact Hc. reflexivity.
Qed.

Lemma enc1_shape : forall c, c < 128 /\ utf8_enc1 c = [c] \/
  exists b r, utf8_enc1 c = b :: r /\ Forall (fun x => 128 <= x) (b :: r).
Proof.
  assert (H : forall k x, 128 <= k -> 128 <= k + x)
    by (intros k x Hk; exact (N.le_trans _ _ _ Hk (N.le_add_r k x))).
  intro c. unfold utf8_enc1. destruct (N.ltb_spec c 128) as [L|L]; [left; split; [exact L|reflexivity]|right].
  destruct (c <? 2048); [|destruct (c <? 65536)]; eexists _, _; (split; [reflexivity|]);
    repeat constructor; apply H; discriminate.
Qed.

Lemma utf8_enc_ascii : forall c t, c < 128 -> utf8_enc (c :: t) = c :: utf8_enc t.
Proof. intros c t H. rewrite utf8_enc_cons. unfold utf8_enc1. rewrite (proj2 (N.ltb_lt c 128) H). reflexivity. Qed.

Definition clean (b : N) : Prop := b <> 10 /\ b <> 13.

Lemma high_clean : forall x, 128 <= x -> clean x.
Proof. intros x H. split; intros ->; exact (H eq_refl). Qed.

Lemma enc1_clean : forall c, clean c -> Forall clean (utf8_enc1 c).
Proof.
  intros c Hc. destruct (enc1_shape c) as [[_ ->]|(b & r & -> & H)]; [constructor; [exact Hc|constructor]|].
  exact (Forall_impl _ high_clean H).
Qed.

Lemma utf8_enc_head : forall c t, c <> 10 -> exists b r, utf8_enc (c :: t) = b :: r /\ b <> 10.
Proof.
  intros c t Hc. rewrite utf8_enc_cons. destruct (enc1_shape c) as [[_ ->]|(b & r & -> & H)].
  - exists c, (utf8_enc t). split; [reflexivity|exact Hc].
  - exists b, (r ++ utf8_enc t). split; [reflexivity|]. inversion H as [|? ? Hb _]. apply high_clean, Hb.
Qed.

Lemma norm_clean_cons : forall b x, clean b -> norm (b :: x) = b :: norm x.
Proof.
  intros b x [H10 H13]. cbn [norm].
  destruct (N.eqb_spec b 10); [contradiction|]. destruct (N.eqb_spec b 13); [contradiction|]. reflexivity.
Qed.

Lemma norm_app_clean : forall p x, Forall clean p -> norm (p ++ x) = p ++ norm x.
Proof.
  induction p as [|b p IH]; intros x H; [reflexivity|].
  inversion H as [|? ? Hb Hp]; subst. cbn [app]. rewrite norm_clean_cons, IH by assumption. reflexivity.
Qed.

Lemma norm_lf : forall x, norm (10 :: x) = 13 :: 10 :: norm x.
Proof. reflexivity. Qed.

Lemma norm_crlf : forall x, norm (13 :: 10 :: x) = 13 :: 10 :: norm x.
Proof. reflexivity. Qed.

Lemma norm_cr_other : forall b x, b <> 10 -> norm (13 :: b :: x) = 13 :: norm (b :: x).
Proof. intros b x H. cbn [norm]. cbn. destruct (N.eqb_spec b 10); [contradiction|reflexivity]. Qed.

(* induction along the recursion of norm; the case of a CR is reached with the
   statement for the list behind it AND for that list with the CR in front *)
Lemma norm_list_ind : forall P : list N -> Prop,
  P [] -> P [13] ->
  (forall x, P x -> P (10 :: x)) ->
  (forall x, P x -> P (13 :: 10 :: x)) ->
  (forall b x, b <> 10 -> P (b :: x) -> P (13 :: b :: x)) ->
  (forall a x, clean a -> P x -> P (a :: x)) ->
  forall m, P m.
Proof.
  intros P Hnil Hcr Hlf Hcrlf Hcro Hcl m.
  enough (H : P m /\ P (13 :: m)) by apply H.
  induction m as [|c m [IH IHcr]]; [split; assumption|].
  assert (Hc : P (c :: m)).
  { destruct (N.eq_dec c 10) as [->|N10]; [apply Hlf, IH|].
    destruct (N.eq_dec c 13) as [->|N13]; [exact IHcr|]. apply Hcl; [split; assumption|exact IH]. }
  split; [exact Hc|]. destruct (N.eq_dec c 10) as [->|N10]; [apply Hcrlf, IH|apply Hcro; assumption].
Qed.

Lemma norm_enc : forall t, norm (utf8_enc t) = utf8_enc (norm t).
Proof.
  induction t as [| |x IH|x IH|b x Hb IH|a x Ha IH] using norm_list_ind; try reflexivity.
  - rewrite norm_lf, !utf8_enc_ascii, norm_lf, IH by reflexivity. reflexivity.
  - rewrite norm_crlf, !utf8_enc_ascii, norm_crlf, IH by reflexivity. reflexivity.
  - rewrite (norm_cr_other b x Hb), !(utf8_enc_ascii 13), <- IH by reflexivity.
    destruct (utf8_enc_head b x Hb) as (y & r & -> & Hy). apply norm_cr_other, Hy.
  - rewrite (norm_clean_cons a x Ha), !utf8_enc_cons, norm_app_clean, IH by apply enc1_clean, Ha. reflexivity.
Qed.

Lemma norm_valid : forall t, valid_text t -> valid_text (norm t).
Proof.
  unfold valid_text.
  induction t as [| |x IH|x IH|b x Hb IH|a x Ha IH] using norm_list_ind; intro H; try exact H.
  - inversion H; subst. rewrite norm_lf. repeat constructor; auto.
  - inversion H as [|? ? _ H']; inversion H'; subst. rewrite norm_crlf. repeat constructor; auto.
  - inversion H; subst. rewrite norm_cr_other by exact Hb. constructor; auto.
  - inversion H; subst. rewrite norm_clean_cons by exact Ha. constructor; auto.
Qed.

Lemma norm_nolf : forall t, nolf t -> norm t = t.
Proof.
  induction t as [| |x IH|x IH|b x Hb IH|a x Ha IH] using norm_list_ind; intro H; try reflexivity.
  - inversion H; congruence.
  - inversion H as [|? ? _ H']; inversion H'; congruence.
  - inversion H; subst. rewrite norm_cr_other, IH by assumption. reflexivity.
  - inversion H; subst. rewrite norm_clean_cons, IH by assumption. reflexivity.
Qed.

Lemma norm_line : forall l x, nolf l -> norm (l ++ 10 :: x) = strip_cr l ++ 13 :: 10 :: norm x.
Proof.
  intros l x.
  induction l as [| |l IH|l IH|b l Hb IH|a l Ha IH] using norm_list_ind; intro H; try reflexivity.
  - inversion H; congruence.
  - inversion H as [|? ? _ H']; inversion H'; congruence.
  - inversion H; subst. cbn [app] in *. rewrite norm_cr_other, IH, strip_cr_cons2 by assumption. reflexivity.
  - inversion H; subst. cbn [app]. rewrite norm_clean_cons, IH, strip_cr_cons by (assumption || apply Ha). reflexivity.
Qed.

Lemma norm_unraw : forall ls t, Forall nolf ls -> nolf t ->
  norm (unraw ls ++ t) = join CRLF (map strip_cr ls ++ [t]).
Proof.
  induction ls as [|l ls IH]; intros t H Ht; [apply norm_nolf, Ht|].
  inversion H as [|? ? Hl Hls]; subst. rewrite unraw_cons, <- app_assoc. cbn [app map].
  rewrite norm_line, (IH t Hls Ht), join_cons by (assumption || apply snoc_not_nil). reflexivity.
Qed.

Lemma msg_lines_split : forall m ls t, split_lf m = (ls, t) -> msg_lines m = map strip_cr ls ++ [t].
Proof.
  intros m ls t H. unfold msg_lines. rewrite split_lf_merge, H. unfold merge_split.
  cbn [split_lf CRLF N.eqb Pos.eqb fst snd]. rewrite map_app. cbn [map]. rewrite strip_cr_snoc. reflexivity.
Qed.

Lemma norm_lines : forall m, join CRLF (msg_lines m) = norm m.
Proof.
  intro m. destruct (split_lf m) as [ls t] eqn:E. rewrite (msg_lines_split m ls t E).
  destruct (split_lf_sound m ls t E) as [H1 [H2 H3]]. rewrite <- H1. symmetry. apply norm_unraw; assumption.
Qed.

Lemma nolf_strip_cr : forall l, nolf l -> nolf (strip_cr l).
Proof.
  induction l as [|c l IH]; intro H; [constructor|].
  inversion H as [|? ? Hc Hl]; subst. destruct l as [|d l'].
  - cbn. destruct (c =? 13); [constructor|constructor; [assumption|constructor]].
  - rewrite strip_cr_cons2. constructor; [assumption|]. apply IH. assumption.
Qed.

Lemma msg_lines_nolf : forall m, Forall nolf (msg_lines m) /\ msg_lines m <> [].
Proof.
  intro m. destruct (split_lf m) as [ls t] eqn:E.
  rewrite (msg_lines_split m ls t E). destruct (split_lf_sound m ls t E) as [H1 [H2 H3]]. split.
  - apply Forall_app. split; [|repeat constructor; exact H3].
    apply Forall_map. exact (Forall_impl _ nolf_strip_cr H2).
  - apply snoc_not_nil.
Qed.

Lemma scan_app : forall a b code msgs,
  scan code msgs (a ++ b) =
  match scan code msgs a with
  | SDone c m rest => SDone c m (rest ++ b)
  | SBad rest => SBad (rest ++ b)
  | SMore c m => scan c m b
  end.
Proof.
  induction a as [|raw a IH]; intros b code msgs; [reflexivity|].
  cbn [app scan]. destruct (parse_reply_line raw) as [[[c sep] txt]|]; [|reflexivity].
  destruct (code_conflict code c); [reflexivity|].
  destruct (sep =? 45); [apply IH|reflexivity].
Qed.

Lemma recv_loop_nil : forall code msgs s,
  recv_loop code msgs s [] =
  match scan code msgs (fst (split_lf s)) with
  | SDone c m rest => ROk c (join CRLF m) (unraw rest ++ snd (split_lf s)) []
  | SBad rest => RBad (unraw rest ++ snd (split_lf s)) []
  | SMore _ _ => RLost
  end.
Proof. intros. cbn [recv_loop]. destruct (split_lf s) as [ls tail]. reflexivity. Qed.

Lemma batch_app : forall buf x ls tail code msgs, split_lf buf = (ls, tail) ->
  recv_loop code msgs (buf ++ x) [] =
  match scan code msgs ls with
  | SDone c m rest => ROk c (join CRLF m) (unraw rest ++ tail ++ x) []
  | SBad rest => RBad (unraw rest ++ tail ++ x) []
  | SMore c m => recv_loop c m (tail ++ x) []
  end.
Proof.
  intros buf x ls tail code msgs H.
  rewrite recv_loop_nil, (split_lf_app buf x ls tail H). cbn [fst snd]. rewrite scan_app.
  destruct (scan code msgs ls) as [c m rest|rest|c m].
  - rewrite unraw_app, <- app_assoc, split_lf_inv. reflexivity.
  - rewrite unraw_app, <- app_assoc, split_lf_inv. reflexivity.
  - rewrite recv_loop_nil. reflexivity.
Qed.

Lemma recv_lines : forall ls s code msgs, Forall nolf ls ->
  recv_loop code msgs (unraw ls ++ s) [] =
  match scan code msgs ls with
  | SDone c m rest => ROk c (join CRLF m) (unraw rest ++ s) []
  | SBad rest => RBad (unraw rest ++ s) []
  | SMore c m => recv_loop c m s []
  end.
Proof.
  intros ls s code msgs H. apply (batch_app (unraw ls) s ls []).
  rewrite <- (app_nil_r (unraw ls)) at 1. rewrite split_lf_unraw_app by exact H. cbn. rewrite app_nil_r. reflexivity.
Qed.

Lemma recv_loop_cons : forall code msgs buf ch chunks,
  recv_loop code msgs buf (ch :: chunks) =
  let '(ls, tail) := split_lf buf in
  match scan code msgs ls with
  | SDone c m rest => ROk c (join CRLF m) (unraw rest ++ tail) (ch :: chunks)
  | SBad rest => RBad (unraw rest ++ tail) (ch :: chunks)
  | SMore c m => match ch with [] => RLost | _ => recv_loop c m (tail ++ ch) chunks end
  end.
Proof. reflexivity. Qed.

Definition nonempty_chunks (chunks : list bytes) : Prop := Forall (fun c => c <> []) chunks.

Lemma inc_batch : forall chunks code msgs buf,
  match recv_loop code msgs buf chunks with
  | ROk c body b' ch' => recv_loop code msgs (buf ++ concat chunks) [] = ROk c body (b' ++ concat ch') []
  | RBad b' ch' => recv_loop code msgs (buf ++ concat chunks) [] = RBad (b' ++ concat ch') []
  | RLost => nonempty_chunks chunks -> recv_loop code msgs (buf ++ concat chunks) [] = RLost
  end.
Proof.
  induction chunks as [|ch chunks IH]; intros code msgs buf.
  - cbn [concat]. rewrite app_nil_r, recv_loop_nil.
    destruct (scan code msgs _); rewrite ?app_nil_r; reflexivity.
  - rewrite recv_loop_cons. destruct (split_lf buf) as [ls tail] eqn:Es.
    rewrite (batch_app buf (concat (ch :: chunks)) ls tail code msgs Es).
    destruct (scan code msgs ls) as [c m rest|rest|c m]; try (rewrite <- app_assoc; reflexivity).
    destruct ch as [|b0 ch0]; [intro Hne; inversion Hne; contradiction|].
    specialize (IH c m (tail ++ b0 :: ch0)). cbn [concat]. rewrite <- app_assoc in IH.
    destruct (recv_loop c m (tail ++ b0 :: ch0) chunks); try exact IH.
    intro Hne. apply IH. inversion Hne; assumption.
Qed.

Lemma recv_loop_suffix : forall chunks code msgs buf,
  match recv_loop code msgs buf chunks with
  | ROk _ _ _ ch' | RBad _ ch' => exists pre, chunks = pre ++ ch'
  | RLost => True
  end.
Proof.
  induction chunks as [|ch chunks IH]; intros code msgs buf; cbn [recv_loop];
    destruct (split_lf buf) as [ls tail]; destruct (scan code msgs ls) as [? ? ?|?|c m];
    try (exists []; reflexivity); try exact I.
  destruct ch as [|b0 ch0]; [exact I|]. specialize (IH c m (tail ++ b0 :: ch0)).
  destruct (recv_loop c m _ chunks); try exact I; destruct IH as [pre ->]; exists ((b0 :: ch0) :: pre); reflexivity.
Qed.

Definition is_code (code : bytes) : Prop :=
  exists d1 d2 d3, code = [d1; d2; d3] /\ ((49 <=? d1) && (d1 <=? 53)) = true /\ is_digit d2 = true /\ is_digit d3 = true.

Lemma raw_line_nolf : forall code sep l, is_code code -> is_sep sep = true -> nolf l ->
  nolf (code ++ sep :: l ++ [13]).
Proof.
  intros code sep l (d1 & d2 & d3 & -> & H1 & H2 & H3) Hs Hl. unfold is_digit, is_sep in *.
  repeat (constructor; [lia|]). apply nolf_app. split; [exact Hl|]. constructor; [discriminate|constructor].
Qed.

Lemma parse_raw : forall code sep l, is_code code -> is_sep sep = true ->
  parse_reply_line (code ++ sep :: l ++ [13]) = Some (code, sep, l).
Proof.
  intros code sep l [d1 [d2 [d3 [E [H1 [H2 H3]]]]]] Hs. subst code. unfold parse_reply_line.
  change ([d1; d2; d3] ++ sep :: l ++ [13]) with ((d1 :: d2 :: d3 :: sep :: l) ++ [13]).
  rewrite strip_cr_snoc, H1, H2, H3, Hs. reflexivity.
Qed.

Lemma parse_some : forall raw c sep t, parse_reply_line raw = Some (c, sep, t) ->
  is_code c /\ is_sep sep = true /\ strip_cr raw = c ++ sep :: t.
Proof.
  intros raw c sep t H. unfold parse_reply_line in H.
  destruct (strip_cr raw) as [|d1 [|d2 [|d3 [|s txt]]]]; try discriminate.
  destruct (((49 <=? d1) && (d1 <=? 53)) && is_digit d2 && is_digit d3 && is_sep s) eqn:E; [|discriminate].
  injection H as <- <- <-. do 3 (apply andb_true_iff in E; destruct E as [E ?]).
  split; [exists d1, d2, d3|]; repeat split; assumption.
Qed.

Lemma non_ascii_code_line : forall raw d1 d2 d3 rest, strip_cr raw = d1 :: d2 :: d3 :: rest ->
  ((128 <=? d1) || (128 <=? d2) || (128 <=? d3)) = true -> parse_reply_line raw = None.
Proof.
  intros raw d1 d2 d3 rest E H. destruct (parse_reply_line raw) as [[[c sep] t]|] eqn:P; [|reflexivity].
  apply parse_some in P. destruct P as ((e1 & e2 & e3 & -> & H1 & H2 & H3) & _ & E').
  rewrite E in E'. injection E' as -> -> -> _. unfold is_digit in *. lia.
Qed.

Lemma emit_lines_cons : forall code l ls, ls <> [] ->
  emit_lines code (l :: ls) = code ++ [45] ++ l ++ CRLF ++ emit_lines code ls.
Proof. intros code l [|l2 ls] H; [contradiction|reflexivity]. Qed.

Definition raws (code : bytes) (init : list bytes) (lst : bytes) : list bytes :=
  map (fun l => code ++ 45 :: l ++ [13]) init ++ [code ++ 32 :: lst ++ [13]].

Lemma emit_raws : forall code init lst, emit_lines code (init ++ [lst]) = unraw (raws code init lst).
Proof.
  intros code init lst. unfold raws, unraw. induction init as [|l init IH].
  - cbn. rewrite app_nil_r, <- !app_assoc. cbn [app]. rewrite <- app_assoc. reflexivity.
  - cbn [app map concat]. rewrite emit_lines_cons, IH by apply snoc_not_nil.
    rewrite <- !app_assoc. cbn [app]. rewrite <- !app_assoc. reflexivity.
Qed.

Lemma raws_nolf : forall code init lst, is_code code -> Forall nolf (init ++ [lst]) ->
  Forall nolf (raws code init lst).
Proof.
  intros code init lst Hc H. apply Forall_app in H. destruct H as [Hi Hl]. inversion Hl; subst.
  apply Forall_app. split; [apply Forall_map|repeat constructor; apply raw_line_nolf; auto].
  exact (Forall_impl _ (fun l => raw_line_nolf code 45 l Hc eq_refl) Hi).
Qed.

Lemma scan_raws : forall code init lst rest code0 msgs, is_code code -> code_conflict code0 code = false ->
  scan code0 msgs (raws code init lst ++ rest) = SDone code (msgs ++ init ++ [lst]) rest.
Proof.
  intros code init lst rest code0 msgs Hc. revert code0 msgs. unfold raws.
  induction init as [|l init IH]; intros code0 msgs Hcf;
    cbn [map app scan]; rewrite parse_raw, Hcf by (exact Hc || reflexivity); cbn [N.eqb Pos.eqb]; [reflexivity|].
  rewrite IH by (cbn; rewrite beqb_refl; reflexivity). rewrite <- app_assoc. reflexivity.
Qed.

Lemma emit_recv_batch : forall code ls t, is_code code -> ls <> [] -> Forall nolf ls ->
  recv_loop None [] (emit_lines code ls ++ t) [] = ROk code (join CRLF ls) t [].
Proof.
  intros code ls t Hc Hne Hn. destruct (exists_last Hne) as (init & lst & ->).
  rewrite emit_raws, recv_lines by (apply raws_nolf; assumption).
  rewrite <- (app_nil_r (raws code init lst)), scan_raws by (exact Hc || reflexivity). reflexivity.
Qed.

Lemma emit_recv : forall code ls t buf chunks, is_code code -> ls <> [] -> Forall nolf ls ->
  nonempty_chunks chunks -> buf ++ concat chunks = emit_lines code ls ++ t ->
  exists buf' chunks', recv_reply buf chunks = ROk code (join CRLF ls) buf' chunks' /\
    buf' ++ concat chunks' = t /\ nonempty_chunks chunks'.
Proof.
  intros code ls t buf chunks Hc Hne Hn Hch Hs. unfold recv_reply.
  pose proof (inc_batch chunks None [] buf) as I. pose proof (recv_loop_suffix chunks None [] buf) as S.
  rewrite Hs, emit_recv_batch in I by assumption.
  destruct (recv_loop None [] buf chunks) as [c body b' ch'|b' ch'|]; [|discriminate I|discriminate (I Hch)].
  inversion I; subst. destruct S as [pre ->]. exists b', ch'. repeat split. apply Forall_app in Hch. apply Hch.
Qed.

Lemma send_recv : forall code m t buf chunks, is_code code -> nonempty_chunks chunks ->
  buf ++ concat chunks = send_reply code m ++ t ->
  exists buf' chunks', recv_reply buf chunks = ROk code (norm m) buf' chunks' /\
    buf' ++ concat chunks' = t /\ nonempty_chunks chunks'.
Proof.
  intros code m t buf chunks Hc Hne Hs. rewrite <- norm_lines.
  destruct (msg_lines_nolf m) as [Hn Hm]. apply emit_recv; assumption.
Qed.

Lemma send_recv_inc : forall code m t buf chunks, is_code code -> nonempty_chunks chunks ->
  buf ++ concat chunks = send_reply code m ++ t ->
  exists buf' chunks', recv_reply buf chunks = ROk code (norm m) buf' chunks' /\ buf' ++ concat chunks' = t.
Proof.
  intros code m t buf chunks Hc Hne Hs.
  destruct (send_recv code m t buf chunks Hc Hne Hs) as (b' & ch' & Hr & Ht & _). exists b', ch'. split; assumption.
Qed.

Fixpoint wf_reply_lines (c : bytes) (raws txts : list bytes) : Prop :=
  match raws, txts with
  | r :: raws', t :: txts' =>
      match raws' with
      | [] => txts' = [] /\ exists sep, parse_reply_line r = Some (c, sep, t) /\ sep <> 45
      | _ => parse_reply_line r = Some (c, 45, t) /\ wf_reply_lines c raws' txts'
      end
  | _, _ => False
  end.

Lemma scan_done_inv : forall ls code0 msgs c m rest,
  scan code0 msgs ls = SDone c m rest ->
  exists pre txts, ls = pre ++ rest /\ m = msgs ++ txts /\ wf_reply_lines c pre txts /\
                   (forall c0, code0 = Some c0 -> c0 = c).
Proof.
  induction ls as [|raw ls IH]; intros code0 msgs c m rest H; [discriminate|].
  cbn [scan] in H. destruct (parse_reply_line raw) as [[[c1 sep] txt]|] eqn:P; [|discriminate].
  destruct (code_conflict code0 c1) eqn:Cf; [discriminate|].
  assert (Hc0 : forall c0, code0 = Some c0 -> c0 = c1).
  { intros c0 ->. cbn in Cf. apply negb_false_iff in Cf. apply beqb_eq in Cf. exact Cf. }
  destruct (N.eqb_spec sep 45) as [->|N45].
  - apply IH in H. destruct H as (pre & txts & -> & -> & W & Hc).
    assert (c1 = c) by (apply Hc; reflexivity). subst c1.
    exists (raw :: pre), (txt :: txts). split; [reflexivity|]. split; [rewrite <- app_assoc; reflexivity|].
    split; [|exact Hc0].
    cbn [wf_reply_lines]. destruct pre as [|p pre']; [destruct txts; destruct W|]. split; assumption.
  - inversion H; subst. exists [raw], [txt]. split; [reflexivity|]. split; [reflexivity|].
    split; [|exact Hc0]. cbn. split; [reflexivity|]. exists sep. split; assumption.
Qed.

Lemma wf_code : forall c pre txts, wf_reply_lines c pre txts -> is_code c.
Proof.
  intros c [|r pre] [|t txts] W; cbn in W; try contradiction.
  destruct pre.
  - destruct W as [_ [sep [P _]]]. exact (proj1 (parse_some _ _ _ _ P)).
  - destruct W as [P _]. exact (proj1 (parse_some _ _ _ _ P)).
Qed.

Lemma ok_is_wellformed : forall buf chunks c body b' ch',
  recv_reply buf chunks = ROk c body b' ch' ->
  exists pre txts, buf ++ concat chunks = unraw pre ++ b' ++ concat ch' /\
                   wf_reply_lines c pre txts /\ body = join CRLF txts.
Proof.
  intros buf chunks c body b' ch' H. pose proof (inc_batch chunks None [] buf) as I.
  unfold recv_reply in H. rewrite H, recv_loop_nil in I.
  destruct (scan None [] _) as [c1 m rest|rest|c1 m] eqn:Sc; try discriminate.
  injection I as -> <- <-. apply scan_done_inv in Sc. destruct Sc as (pre & txts & E & -> & W & _).
  exists pre, txts. split; [exact (lines_prefix _ _ _ E)|split; [exact W|reflexivity]].
Qed.

Lemma bad_line : forall code msgs raw s, nolf raw -> parse_reply_line raw = None ->
  recv_loop code msgs (raw ++ 10 :: s) [] = RBad s [].
Proof.
  intros code msgs raw s Hn Hp. pose proof (recv_lines [raw] s code msgs (Forall_cons _ Hn (Forall_nil _))) as R.
  cbn [scan] in R. rewrite Hp, unraw_cons, <- app_assoc in R. exact R.
Qed.

Lemma code_mismatch : forall c1 c2 l1 l2 sep2 s, is_code c1 -> is_code c2 -> c1 <> c2 ->
  nolf l1 -> nolf l2 -> is_sep sep2 = true ->
  recv_loop None [] ((c1 ++ 45 :: l1 ++ [13]) ++ 10 :: (c2 ++ sep2 :: l2 ++ [13]) ++ 10 :: s) [] =
  RBad ((c2 ++ sep2 :: l2 ++ [13]) ++ 10 :: s) [].
Proof.
  intros c1 c2 l1 l2 sep2 s H1 H2 Hd Hl1 Hl2 Hs.
  pose proof (recv_lines [c1 ++ 45 :: l1 ++ [13]; c2 ++ sep2 :: l2 ++ [13]] s None []) as R.
  cbn [scan] in R. rewrite !parse_raw in R by (assumption || reflexivity). cbn [code_conflict N.eqb Pos.eqb] in R.
  destruct (beqb c1 c2) eqn:B; [apply beqb_eq in B; contradiction|]. cbn [negb] in R.
  unfold unraw in R. cbn [map concat] in R. rewrite !app_nil_r, <- !app_assoc in R. rewrite <- !app_assoc. apply R.
  repeat constructor; apply raw_line_nolf; auto.
Qed.

Lemma scan_rest : forall ls code msgs,
  match scan code msgs ls with
  | SDone _ _ rest | SBad rest => exists pre, ls = pre ++ rest /\ (code = None -> pre <> [])
  | SMore _ _ => True
  end.
Proof.
  induction ls as [|raw ls IH]; intros code msgs; [exact I|]. cbn [scan].
  assert (H1 : exists pre, raw :: ls = pre ++ ls /\ (code = None -> pre <> []))
    by (exists [raw]; split; [reflexivity|discriminate]).
  destruct (parse_reply_line raw) as [[[c sep] txt]|]; [|exact H1].
  destruct (code_conflict code c) eqn:Cf; [exists []; split; [reflexivity|intros ->; discriminate]|].
  destruct (sep =? 45); [|exact H1]. specialize (IH (Some c) (msgs ++ [txt])).
  destruct (scan (Some c) (msgs ++ [txt]) ls); try exact I;
    destruct IH as (pre & -> & _); exists (raw :: pre); split; (reflexivity || discriminate).
Qed.

Lemma recv_consumes : forall buf chunks,
  match recv_reply buf chunks with
  | ROk _ _ b' ch' | RBad b' ch' => exists pre, pre <> [] /\ buf ++ concat chunks = pre ++ b' ++ concat ch'
  | RLost => True
  end.
Proof.
  intros buf chunks. pose proof (inc_batch chunks None [] buf) as B. unfold recv_reply.
  rewrite recv_loop_nil in B. pose proof (scan_rest (fst (split_lf (buf ++ concat chunks))) None []) as S.
  destruct (recv_loop None [] buf chunks); try exact I;
    destruct (scan None [] _); try discriminate; destruct S as (pre & E & Hne);
    injection B; intros <-; exists (unraw pre); (split; [apply unraw_nonempty, Hne; reflexivity|apply lines_prefix, E]).
Qed.

Definition code_2xx_5xx (code : list N) : Prop :=
  exists k d2 d3, code = [k; d2; d3] /\ 50 <= k <= 53 /\ is_digit d2 = true /\ is_digit d3 = true.

Lemma code_2xx_5xx_is_code : forall code, code_2xx_5xx code -> is_code code.
Proof. intros code (k & d2 & d3 & -> & Hk & H2 & H3). exists k, d2, d3. repeat split; try assumption. lia. Qed.

Lemma is245_clean : forall k, is245 k = true -> clean k.
Proof. intros k H. unfold is245 in H. split; lia. Qed.

Section ReplyObject.
  Local Arguments is245 : simpl never.
  Variable udigit uspace : N -> bool.
  Hypothesis Hd46 : udigit 46 = false.
  Hypothesis Hd48 : udigit 48 = true.
  Hypothesis Hs32 : uspace 32 = true.
  Hypothesis Hs10 : uspace 10 = true.
  Hypothesis Hs13 : uspace 13 = true.
  Hypothesis Hdisj : forall c, udigit c = true -> uspace c = false.

  Notation take_digits := (take_digits udigit).
  Notation drop_space := (drop_space uspace).
  Notation match_esc := (match_esc udigit uspace).
  Notation new_reply := (new_reply udigit uspace).
  Notation set_message := (set_message udigit uspace).

  Definition dig13 (d : list N) : bool :=
    match d with
    | [a] => udigit a
    | [a; b] => udigit a && udigit b
    | [a; b; c] => udigit a && udigit b && udigit c
    | _ => false
    end.
  Definition nd_head (s : list N) : bool :=
    match s with [] => true | x :: _ => negb (udigit x) end.
  Definition ns_head (s : list N) : bool :=
    match s with [] => true | x :: _ => negb (uspace x) end.

  Lemma take_digits_some : forall s d s', take_digits s = Some (d, s') -> s = d ++ s' /\ dig13 d = true.
  Proof.
    intros s d s' H. unfold Reply.take_digits in H.
    destruct s as [|d1 s1]; [discriminate|].
    destruct (udigit d1) eqn:E1; [|discriminate].
    destruct s1 as [|d2 s2].
    { inversion H; subst. cbn. auto. }
    destruct (udigit d2) eqn:E2.
    2:{ inversion H; subst. cbn. auto. }
    destruct s2 as [|d3 s3].
    { inversion H; subst. cbn. rewrite E1. auto. }
    destruct (udigit d3) eqn:E3.
    2:{ inversion H; subst. cbn. rewrite E1. auto. }
    assert (E : dig13 [d1; d2; d3] = true) by (cbn; rewrite E1, E2; exact E3).
    destruct s3 as [|d4 s4]; [|destruct (udigit d4); [discriminate|]]; inversion H; subst; auto.
  Qed.

  Lemma take_digits_app : forall d s', dig13 d = true -> nd_head s' = true -> take_digits (d ++ s') = Some (d, s').
  Proof.
    intros d s' Hd Hn. unfold Reply.take_digits.
    assert (Hx : match s' with x :: _ => udigit x = false | [] => True end)
      by (destruct s' as [|x ?]; [exact I|]; cbn in Hn; destruct (udigit x); [discriminate|reflexivity]).
    destruct d as [|a [|b [|c [|e d']]]]; cbn in Hd; try discriminate; cbn [app].
    - rewrite Hd. destruct s'; [|rewrite Hx]; reflexivity.
    - apply andb_true_iff in Hd. destruct Hd as [-> ->]. destruct s'; [|rewrite Hx]; reflexivity.
    - apply andb_true_iff in Hd. destruct Hd as [Hd ->]. apply andb_true_iff in Hd. destruct Hd as [-> ->].
      destruct s'; [|rewrite Hx]; reflexivity.
  Qed.

  Lemma space_not_digit : forall w, uspace w = true -> udigit w = false.
  Proof. intros w H. destruct (udigit w) eqn:E; [|reflexivity]. apply Hdisj in E. congruence. Qed.

  Lemma drop_space_head : forall s, ns_head (drop_space s) = true.
  Proof. induction s as [|c s IH]; [reflexivity|]. cbn. destruct (uspace c) eqn:E; [exact IH|]. cbn. rewrite E. reflexivity. Qed.

  Lemma drop_space_id : forall s, ns_head s = true -> drop_space s = s.
  Proof. intros [|c s] H; [reflexivity|]. cbn in *. destruct (uspace c); [discriminate|reflexivity]. Qed.

  Lemma drop_space_valid : forall sp, valid_text sp -> valid_text (drop_space sp).
  Proof.
    unfold valid_text. induction sp as [|x sp IH]; intros V; [constructor|]. cbn. inversion V; subst.
    destruct (uspace x); [apply IH; assumption|constructor; assumption].
  Qed.

  (* what both status-code patterns begin with: class, '.', 1-3 digits, '.', 1-3 digits; the pieces
     and what follows them go to `tail`.  Written with the nesting of the two matchers of the model,
     so that each of them is this one, by computation, with its own test of what follows. *)
  Definition esc_parts {T} (v : list N) (tail : N -> list N -> list N -> list N -> option T) : option T :=
    match v with
    | k :: dot :: s =>
        if is245 k && (dot =? 46) then
          match take_digits s with
          | Some (subj, s1) =>
              match s1 with
              | dot2 :: s2 =>
                  if dot2 =? 46 then
                    match take_digits s2 with
                    | Some (det, s3) => tail k subj det s3
                    | None => None
                    end
                  else None
              | [] => None
              end
          | None => None
          end
        else None
    | _ => None
    end.

  Lemma match_esc_parts : forall v, match_esc v =
    esc_parts v (fun k subj det s3 =>
      match s3 with w :: s4 => if uspace w then Some (k, subj, det, drop_space s4) else None | [] => None end).
  Proof. reflexivity. Qed.

  Lemma match_esc_pattern_parts : forall v, Reply.match_esc_pattern udigit v =
    esc_parts v (fun k subj det s3 => if at_dollar s3 then Some (k, subj, det) else None).
  Proof. reflexivity. Qed.

  Lemma esc_parts_some : forall T v tail (x : T), esc_parts v tail = Some x ->
    exists k subj det s3, v = k :: 46 :: subj ++ 46 :: det ++ s3 /\ tail k subj det s3 = Some x /\
      is245 k = true /\ dig13 subj = true /\ dig13 det = true.
  Proof.
    intros T [|k [|dot s]] tail x H; try discriminate. unfold esc_parts in H.
    destruct (is245 k && (dot =? 46)) eqn:E; [|discriminate].
    apply andb_true_iff in E. destruct E as [Ek Edot]. apply N.eqb_eq in Edot. subst dot.
    destruct (take_digits s) as [[subj [|dot2 s2]]|] eqn:T1; try discriminate.
    destruct (N.eqb_spec dot2 46) as [->|]; [|discriminate].
    destruct (take_digits s2) as [[det s3]|] eqn:T2; [|discriminate].
    apply take_digits_some in T1, T2. destruct T1 as [-> B1], T2 as [-> B2]. exists k, subj, det, s3. auto.
  Qed.

  Lemma esc_parts_app : forall T k subj det s3 (tail : _ -> _ -> _ -> _ -> option T),
    is245 k = true -> dig13 subj = true -> dig13 det = true -> nd_head s3 = true ->
    esc_parts (k :: 46 :: subj ++ 46 :: det ++ s3) tail = tail k subj det s3.
  Proof.
    intros T k subj det s3 tail Hk Hs Hd Hn. unfold esc_parts. rewrite Hk. cbn [andb N.eqb Pos.eqb].
    rewrite take_digits_app; [|assumption|cbn; rewrite Hd46; reflexivity].
    cbn [N.eqb Pos.eqb]. rewrite take_digits_app by assumption. reflexivity.
  Qed.

  Lemma match_esc_some : forall v k subj det rest, match_esc v = Some (k, subj, det, rest) ->
    exists w sp, v = k :: 46 :: subj ++ 46 :: det ++ w :: sp /\ is245 k = true /\
                 dig13 subj = true /\ dig13 det = true /\ uspace w = true /\ rest = drop_space sp.
  Proof.
    intros v k subj det rest H. rewrite match_esc_parts in H. apply esc_parts_some in H.
    destruct H as (k0 & subj0 & det0 & [|w sp] & -> & H & Hk & Hs & Hd); [discriminate|].
    destruct (uspace w) eqn:Ew; [|discriminate]. injection H as <- <- <- <-. exists w, sp. repeat split; assumption.
  Qed.

  Lemma match_esc_app : forall k subj det w sp, is245 k = true -> dig13 subj = true -> dig13 det = true ->
    uspace w = true ->
    match_esc (k :: 46 :: subj ++ 46 :: det ++ w :: sp) = Some (k, subj, det, drop_space sp).
  Proof.
    intros k subj det w sp Hk Hs Hd Hw.
    rewrite match_esc_parts, esc_parts_app, Hw by (assumption || (cbn; rewrite (space_not_digit w Hw); reflexivity)).
    reflexivity.
  Qed.

  Lemma match_esc_pattern_some : forall v k subj det, Reply.match_esc_pattern udigit v = Some (k, subj, det) ->
    exists tl, v = k :: 46 :: subj ++ 46 :: det ++ tl /\ is245 k = true /\ dig13 subj = true /\ dig13 det = true.
  Proof.
    intros v k subj det H. rewrite match_esc_pattern_parts in H. apply esc_parts_some in H.
    destruct H as (k0 & subj0 & det0 & s3 & -> & H & P). destruct (at_dollar s3); [|discriminate].
    injection H as <- <- <-. exists s3. split; [reflexivity|exact P].
  Qed.

  (* what message_esc_pattern captures as group(1) is accepted by esc_pattern, with the same pieces *)
  Lemma patterns_agree : forall v k subj det rest, match_esc v = Some (k, subj, det, rest) ->
    Reply.match_esc_pattern udigit (k :: 46 :: subj ++ 46 :: det) = Some (k, subj, det).
  Proof.
    intros v k subj det rest H. apply match_esc_some in H. destruct H as (w & sp & _ & Hk & Hs & Hd & _).
    rewrite match_esc_pattern_parts. rewrite <- (app_nil_r det) at 1.
    rewrite esc_parts_app by (assumption || reflexivity). reflexivity.
  Qed.

  (* the message setter never lets the ValueError of the ESC setter escape, and computes set_message *)
  Lemma set_message_chk_total : forall r v,
    Reply.set_message_chk udigit uspace r v = Some (set_message r v).
  Proof.
    intros r v. unfold Reply.set_message_chk, Reply.set_message, Reply.msg_esc_group1.
    destruct v as [|c v']; [reflexivity|].
    destruct (peel_allowed (r_code r)); [|reflexivity].
    destruct (match_esc (c :: v')) as [[[[k subj] det] rest]|] eqn:E; [|reflexivity].
    unfold Reply.esc_setter. rewrite (patterns_agree _ _ _ _ _ E). reflexivity.
  Qed.

  Lemma get_message_nil : forall code e, get_message (mkReply code e []) = [].
  Proof. intros. unfold get_message. cbn [r_msg]. destruct (get_esc _); reflexivity. Qed.

  Lemma get_message_plain : forall k c2 e m, is245 k = false -> get_message (mkReply (k :: c2) e m) = m.
  Proof. intros k c2 e m Hk. unfold get_message, get_esc, code_class. cbn [r_code hd]. rewrite Hk. reflexivity. Qed.

  Lemma get_message_esc : forall k c2 e m, is245 k = true -> m <> [] ->
    get_message (mkReply (k :: c2) e m) =
    match e with
    | EscSome _ subj det => k :: 46 :: subj ++ 46 :: det ++ 32 :: m
    | EscNone => k :: 46 :: [48] ++ 46 :: [48] ++ 32 :: m
    | EscFalse => m
    end.
  Proof.
    intros k c2 e [|c m] Hk Hm; [contradiction|].
    unfold get_message, get_esc, code_class. cbn [r_code r_esc r_msg hd]. rewrite Hk.
    destruct e; cbn [app]; rewrite <- ?app_assoc; reflexivity.
  Qed.

  Lemma esc_class : forall r e, get_esc r = Some e ->
    hd 0 e = code_class r /\ is245 (code_class r) = true.
  Proof.
    intros r e H. unfold get_esc in H. destruct (is245 (code_class r)) eqn:E; [|discriminate].
    destruct (r_esc r); inversion H; subst; split; reflexivity.
  Qed.

  Lemma new_reply_unfold : forall code v,
    new_reply code v =
    match v with
    | [] => mkReply code EscNone []
    | _ => match (if peel_allowed code then match_esc v else None) with
           | Some (k, subj, det, rest) => mkReply code (EscSome k subj det) rest
           | None => mkReply code EscNone v
           end
    end.
  Proof. intros code v. unfold Reply.new_reply, Reply.set_message. destruct v; reflexivity. Qed.

  Lemma set_message_code : forall r v, r_code (set_message r v) = r_code r.
  Proof.
    intros r v. unfold Reply.set_message. destruct v as [|c v']; [reflexivity|].
    destruct (if peel_allowed (r_code r) then match_esc (c :: v') else None) as [[[[k subj] det] rest]|]; reflexivity.
  Qed.

  Lemma new_reply_code : forall code v, r_code (new_reply code v) = code.
  Proof. intros code v. apply set_message_code. Qed.

  Lemma getmsg_non245 : forall k c2 v, is245 k = false -> get_message (new_reply (k :: c2) v) = v.
  Proof.
    intros k c2 v Hk. rewrite new_reply_unfold. cbn [peel_allowed]. rewrite Hk.
    destruct v; apply get_message_plain, Hk.
  Qed.

  Lemma digit_clean : forall c, udigit c = true -> clean c.
  Proof. intros c H. apply Hdisj in H. split; intros ->; congruence. Qed.

  Lemma dig13_clean : forall d, dig13 d = true -> Forall clean d.
  Proof.
    intros d H. destruct d as [|a [|b [|c [|e d']]]]; cbn in H; try discriminate;
      repeat (apply andb_true_iff in H; destruct H as [H ?]);
      repeat (apply Forall_cons; [apply digit_clean; assumption|]); apply Forall_nil.
  Qed.

  (* norm starts work behind the status code and the first character of the text *)
  Lemma norm_esc_text : forall k subj det c0 m, is245 k = true -> dig13 subj = true -> dig13 det = true ->
    uspace c0 = false ->
    norm (k :: 46 :: subj ++ 46 :: det ++ 32 :: c0 :: m) = k :: 46 :: subj ++ 46 :: det ++ 32 :: c0 :: norm m.
  Proof.
    intros k subj det c0 m Hk Hs Hd Hh. assert (Hc0 : clean c0) by (split; intros ->; congruence).
    rewrite !norm_clean_cons, norm_app_clean, norm_clean_cons, norm_app_clean, !norm_clean_cons
      by first [apply is245_clean, Hk | apply dig13_clean; assumption | exact Hc0 | split; discriminate].
    reflexivity.
  Qed.

  (* the fixed point under the round trip: from a text that starts with a status code of the code's own class,
     a space and then no further space, the constructor peels exactly that status code off, and the getter
     writes the same one in front again *)
  Lemma getmsg_stable : forall k c2 subj det c0 m, is245 k = true -> dig13 subj = true -> dig13 det = true ->
    uspace c0 = false ->
    get_message (new_reply (k :: c2) (k :: 46 :: subj ++ 46 :: det ++ 32 :: c0 :: m)) =
    k :: 46 :: subj ++ 46 :: det ++ 32 :: c0 :: m.
  Proof.
    intros k c2 subj det c0 m Hk Hs Hd Hh. rewrite new_reply_unfold. cbn [peel_allowed].
    rewrite Hk, match_esc_app, drop_space_id by (assumption || (cbn; rewrite Hh; reflexivity)).
    apply get_message_esc; [exact Hk|discriminate].
  Qed.

  Definition esc_wf (e : esc) : Prop :=
    match e with
    | EscSome _ subj det => dig13 subj = true /\ dig13 det = true /\ valid_text subj /\ valid_text det
    | _ => True
    end.
  Definition reply_inv (r : reply) : Prop :=
    ns_head (r_msg r) = true /\ valid_text (r_msg r) /\ esc_wf (r_esc r).
  Definition rop_ok (o : rop) : Prop :=
    match o with
    | ROMsg v => ns_head v = true /\ valid_text v
    | ROEsc v => valid_text v
    | ROCopy o => reply_inv o
    | _ => True
    end.

  Lemma valid_esc_text : forall k subj det x,
    valid_text (k :: 46 :: subj ++ 46 :: det ++ x) <->
    valid_cp k = true /\ valid_text subj /\ valid_text det /\ valid_text x.
  Proof.
    intros. unfold valid_text. rewrite 2 Forall_cons_iff, Forall_app, Forall_cons_iff, Forall_app.
    intuition reflexivity.
  Qed.

  Lemma set_message_inv : forall r v, reply_inv r -> ns_head v = true -> valid_text v ->
    reply_inv (set_message r v).
  Proof.
    intros r v (Hn & Hv & He) Hnv Hvv.
    assert (Hclr : forall m, ns_head m = true -> valid_text m ->
              reply_inv (mkReply (r_code r) (match r_esc r with EscSome _ _ _ => EscNone | e => e end) m)).
    { intros m H1 H2. repeat split; try assumption. cbn [r_esc]. destruct (r_esc r); exact I. }
    unfold Reply.set_message. destruct v as [|c v']; [apply Hclr; [reflexivity|constructor]|].
    destruct (if peel_allowed (r_code r) then match_esc (c :: v') else None) as [[[[k subj] det] rest]|] eqn:E;
      [|apply Hclr; assumption].
    destruct (peel_allowed (r_code r)); [|discriminate].
    apply match_esc_some in E. destruct E as (w & sp & Ev & Hk & Hs & Hd & Hw & ->).
    rewrite Ev in Hvv. apply valid_esc_text in Hvv. destruct Hvv as (_ & Vs & Vd & Vsp). inversion Vsp; subst.
    repeat split; cbn [r_msg]; auto using drop_space_head, drop_space_valid.
  Qed.

  Notation rop_step := (Reply.rop_step udigit uspace).

  Lemma rop_step_inv : forall r o, reply_inv r -> rop_ok o -> reply_inv (rop_step r o).
  Proof.
    intros r o Hi Ho. unfold Reply.rop_step, Reply.rop_apply.
    destruct o as [c|v|v| |o|]; try assumption.
    - unfold Reply.code_setter. destruct (Reply.ctor_code_ok udigit c); exact Hi.
    - rewrite set_message_chk_total. destruct Ho. apply set_message_inv; assumption.
    - destruct Hi as (Hn & Hv & He). unfold Reply.esc_setter. destruct v as [|c v']; [repeat split; assumption|].
      destruct (Reply.match_esc_pattern udigit (c :: v')) as [[[k subj] det]|] eqn:E; [|repeat split; assumption].
      apply match_esc_pattern_some in E. destruct E as (tl & Ev & Hk & Hs & Hd).
      cbn in Ho. rewrite Ev in Ho. apply valid_esc_text in Ho. destruct Ho as (_ & Vs & Vd & _).
      repeat split; assumption.
    - destruct Hi as (Hn & Hv & _). repeat split; assumption.
  Qed.

  Lemma rops_inv : forall ops r0, Forall rop_ok ops -> reply_inv r0 -> reply_inv (fold_left rop_step ops r0).
  Proof.
    induction ops as [|o ops IH]; intros r0 Hf Hi; [exact Hi|].
    inversion Hf; subst. cbn [fold_left]. apply IH; [assumption|]. apply rop_step_inv; assumption.
  Qed.

  Lemma fresh_inv : reply_inv fresh_reply.
  Proof. split; [reflexivity|]. split; [constructor|exact I]. Qed.

  Lemma sent_at : forall pre post r0,
    Reply.rops_sent udigit uspace r0 (pre ++ ROSend :: post) =
    Reply.rops_sent udigit uspace r0 pre ++ fold_left rop_step pre r0 ::
    Reply.rops_sent udigit uspace (fold_left rop_step pre r0) post.
  Proof.
    induction pre as [|o pre IH]; intros post r0; [reflexivity|].
    cbn [app Reply.rops_sent fold_left]. rewrite IH, app_assoc. reflexivity.
  Qed.

  Lemma sent_inv : forall ops r0, Forall rop_ok ops -> reply_inv r0 ->
    Forall reply_inv (Reply.rops_sent udigit uspace r0 ops).
  Proof.
    induction ops as [|o ops IH]; intros r0 Hf Hi; [constructor|].
    inversion Hf; subst. cbn [Reply.rops_sent]. apply Forall_app. split.
    - destruct o; try constructor; [exact Hi|constructor].
    - apply IH; [assumption|]. apply rop_step_inv; assumption.
  Qed.

  (* what an object shows is, once normalised, what the object built from it under the same code shows:
     with a code 2xx, 4xx, 5xx it starts with the status code that getmsg_stable is about *)
  Lemma shown_stable : forall r, reply_inv r -> r_esc r <> EscFalse -> is_code (r_code r) ->
    valid_text (get_message r) /\
    get_message (new_reply (r_code r) (norm (get_message r))) = norm (get_message r).
  Proof.
    intros [code e m] (Hn & Hv & He) Hf (k & d2 & d3 & Ec & Hk1 & _). cbn [r_code r_esc r_msg] in *. subst code.
    assert (Vk : valid_cp k = true) by (clear - Hk1; unfold valid_cp, is_surrogate; lia).
    destruct (is245 k) eqn:Hk;
      [|rewrite get_message_plain by exact Hk; split; [exact Hv|apply getmsg_non245, Hk]].
    destruct m as [|c0 m'].
    { rewrite get_message_nil. split; [constructor|]. cbn [norm]. rewrite new_reply_unfold. apply get_message_nil. }
    assert (X : exists subj det, (dig13 subj = true /\ valid_text subj) /\ (dig13 det = true /\ valid_text det) /\
                get_message (mkReply [k; d2; d3] e (c0 :: m')) = k :: 46 :: subj ++ 46 :: det ++ 32 :: c0 :: m').
    { rewrite get_message_esc by (exact Hk || discriminate).
      destruct e as [| |k' subj det]; [exists [48], [48]|contradiction|exists subj, det; cbn in He; tauto].
      cbn. rewrite Hd48. repeat split; repeat constructor. }
    destruct X as (subj & det & [Hs Vs] & [Hd Vd] & ->). split.
    - apply valid_esc_text. repeat split; try assumption. constructor; [reflexivity|exact Hv].
    - assert (Hc0 : uspace c0 = false) by (cbn in Hn; destruct (uspace c0); [discriminate|reflexivity]).
      rewrite norm_esc_text by assumption. apply getmsg_stable; assumption.
  Qed.

  (* any well-formed object with a code 1xx..5xx whose ESC is not switched off, written with Reply.send
     and followed by anything, in any segmentation, is read back by Reply.recv to the same code and
     the text it showed, and exactly its bytes are consumed.  (is_code is what the reader of reply lines
     asks of a code, and all this proof needs; the theorems of C17 speak of the codes a server sends,
     code_2xx_5xx, which is narrower: code_2xx_5xx_is_code.) *)
  Lemma wire_roundtrip : forall r t buf chunks,
    reply_inv r -> r_esc r <> EscFalse -> is_code (r_code r) -> nonempty_chunks chunks ->
    buf ++ concat chunks = wire_of r ++ t ->
    exists r' buf' chunks',
      reply_recv udigit uspace buf chunks = GotReply r' buf' chunks' /\
      r_code r' = r_code r /\ get_message r' = norm (get_message r) /\
      buf' ++ concat chunks' = t /\ nonempty_chunks chunks'.
  Proof.
    intros r t buf chunks Hi Hf Hc Hne Hs.
    destruct (send_recv _ _ t buf chunks Hc Hne Hs) as (buf' & ch' & Hr & Ht & Hne').
    destruct (shown_stable r Hi Hf Hc) as [Vt Hfix]. destruct Hc as (k & d2 & d3 & Ec & Hk & _).
    unfold reply_recv. rewrite Hr, norm_enc, utf8_dec_enc by apply norm_valid, Vt.
    replace (code_ok (r_code r)) with true by (rewrite Ec; symmetry; exact Hk).
    eexists _, buf', ch'. split; [reflexivity|]. split; [apply new_reply_code|]. split; [exact Hfix|]. split; assumption.
  Qed.

  Lemma new_reply_inv : forall code v, ns_head v = true -> valid_text v ->
    reply_inv (new_reply code v) /\ r_esc (new_reply code v) <> EscFalse.
  Proof.
    intros code v Hn Hv. split; [apply set_message_inv; try assumption; repeat split; constructor|].
    rewrite new_reply_unfold. destruct v as [|c v']; [discriminate|].
    destruct (if peel_allowed code then match_esc (c :: v') else None) as [[[[? ?] ?] ?]|]; discriminate.
  Qed.

  Lemma reply_roundtrip : forall code v t buf chunks,
    code_2xx_5xx code -> valid_text v -> ns_head v = true -> nonempty_chunks chunks ->
    buf ++ concat chunks = wire_of (new_reply code v) ++ t ->
    exists r' buf' chunks',
      reply_recv udigit uspace buf chunks = GotReply r' buf' chunks' /\
      r_code r' = code /\
      get_message r' = norm (get_message (new_reply code v)) /\
      buf' ++ concat chunks' = t /\ nonempty_chunks chunks'.
  Proof.
    intros code v t buf chunks Hc Hv Hn Hne Hs. destruct (new_reply_inv code v Hn Hv) as [Hi Hf].
    pose proof (wire_roundtrip (new_reply code v) t buf chunks Hi Hf) as W. rewrite new_reply_code in W.
    apply W; try assumption. apply code_2xx_5xx_is_code, Hc.
  Qed.
End ReplyObject.

Section Sequence.
  Variable udigit uspace : N -> bool.
  Hypothesis Hd46 : udigit 46 = false.
  Hypothesis Hd48 : udigit 48 = true.
  Hypothesis Hs32 : uspace 32 = true.
  Hypothesis Hs10 : uspace 10 = true.
  Hypothesis Hs13 : uspace 13 = true.
  Hypothesis Hdisj : forall c, udigit c = true -> uspace c = false.

  Fixpoint recv_n (n : nat) (buf : bytes) (chunks : list bytes) : option (list (list N * list N) * bytes * list bytes) :=
    match n with
    | O => Some ([], buf, chunks)
    | S n' =>
        match reply_recv udigit uspace buf chunks with
        | GotReply r b' ch' =>
            match recv_n n' b' ch' with
            | Some (rs, b'', ch'') => Some ((r_code r, get_message r) :: rs, b'', ch'')
            | None => None
            end
        | _ => None
        end
    end.

  Definition good_reply (cv : list N * list N) : Prop :=
    code_2xx_5xx (fst cv) /\ valid_text (snd cv) /\ ns_head uspace (snd cv) = true.
  Definition wire1 (cv : list N * list N) : bytes := wire_of (new_reply udigit uspace (fst cv) (snd cv)).
  Definition shown (cv : list N * list N) : list N * list N :=
    (fst cv, norm (get_message (new_reply udigit uspace (fst cv) (snd cv)))).

  (* an object that can be written and whose text the receiving side can show unchanged *)
  Definition sendable (r : reply) : Prop := code_2xx_5xx (r_code r) /\ r_esc r <> EscFalse.
  Definition shown_of (r : reply) : list N * list N := (r_code r, norm (get_message r)).

  (* things each of which, alone on the wire, is read back as sh says: any number of them, one
     behind the other, are read back in order, nothing lost between them *)
  Lemma recv_n_all : forall (A : Type) (wire : A -> bytes) (sh : A -> list N * list N) (ok : A -> Prop),
    (forall a t buf chunks, ok a -> nonempty_chunks chunks -> buf ++ concat chunks = wire a ++ t ->
       exists r' b' ch', reply_recv udigit uspace buf chunks = GotReply r' b' ch' /\
         r_code r' = fst (sh a) /\ get_message r' = snd (sh a) /\
         b' ++ concat ch' = t /\ nonempty_chunks ch') ->
    forall l t buf chunks, Forall ok l -> nonempty_chunks chunks ->
      buf ++ concat chunks = concat (map wire l) ++ t ->
      exists b' ch', recv_n (length l) buf chunks = Some (map sh l, b', ch') /\ b' ++ concat ch' = t.
  Proof.
    intros A wire sh ok H1. induction l as [|a l IH]; intros t buf chunks Hg Hne Hs.
    - exists buf, chunks. split; [reflexivity|exact Hs].
    - inversion Hg as [|? ? Ha Hg']; subst. cbn [map concat] in Hs. rewrite <- app_assoc in Hs.
      destruct (H1 a _ buf chunks Ha Hne Hs) as (r' & b1 & ch1 & R1 & R2 & R3 & R4 & R5).
      destruct (IH t b1 ch1 Hg' R5 R4) as (b2 & ch2 & Q1 & Q2).
      exists b2, ch2. split; [|exact Q2].
      cbn [length recv_n map]. rewrite R1, Q1, R2, R3, <- surjective_pairing. reflexivity.
  Qed.

  Lemma sequence_roundtrip : forall rs t buf chunks,
    Forall good_reply rs -> nonempty_chunks chunks ->
    buf ++ concat chunks = concat (map wire1 rs) ++ t ->
    exists b' ch', recv_n (length rs) buf chunks = Some (map shown rs, b', ch') /\ b' ++ concat ch' = t.
  Proof.
    apply recv_n_all. intros cv t buf chunks (G1 & G2 & G3).
    exact (reply_roundtrip udigit uspace Hd46 Hd48 Hs32 Hs10 Hs13 Hdisj (fst cv) (snd cv) t buf chunks G1 G2 G3).
  Qed.

  Lemma written_roundtrip : forall rs t buf chunks,
    Forall (reply_inv udigit uspace) rs -> Forall sendable rs -> nonempty_chunks chunks ->
    buf ++ concat chunks = concat (map wire_of rs) ++ t ->
    exists b' ch', recv_n (length rs) buf chunks = Some (map shown_of rs, b', ch') /\
                   b' ++ concat ch' = t.
  Proof.
    intros rs t buf chunks Hi Hsd.
    apply (recv_n_all _ wire_of shown_of (fun r => reply_inv udigit uspace r /\ sendable r));
      [|apply Forall_and; assumption].
    intros r t0 b c (Hr & Hc & Hf).
    exact (wire_roundtrip udigit uspace Hd46 Hd48 Hs32 Hs10 Hs13 Hdisj r t0 b c Hr Hf (code_2xx_5xx_is_code _ Hc)).
  Qed.

  Lemma bad_reply_consumes : forall buf chunks b' ch',
    reply_recv udigit uspace buf chunks = BadReply b' ch' ->
    (exists pre, pre <> [] /\ buf ++ concat chunks = pre ++ b' ++ concat ch') /\ exists p, chunks = p ++ ch'.
  Proof.
    intros buf chunks b' ch' H. unfold reply_recv in H.
    pose proof (recv_loop_suffix chunks None [] buf) as S. fold (recv_reply buf chunks) in S.
    pose proof (recv_consumes buf chunks) as C.
    destruct (recv_reply buf chunks) as [c body b1 ch1|b1 ch1|]; [| |discriminate].
    - destruct (utf8_dec body) as [t0|]; [destruct (code_ok c); discriminate|]. inversion H; subst. split; assumption.
    - inversion H; subst. split; assumption.
  Qed.

  (* a failed write (UnicodeEncodeError) leaves nothing in the send buffer: the buffer of the
     IO is exactly the writes that succeeded *)
  Lemma rops_out_eq : forall ops r0,
    rops_out udigit uspace r0 ops =
    concat (map wire_of (filter can_encode (rops_sent udigit uspace r0 ops))).
  Proof.
    induction ops as [|o ops IH]; intros r0; [reflexivity|].
    cbn [rops_out rops_sent]. rewrite IH. rewrite filter_app, map_app, concat_app. f_equal.
    destruct o; try reflexivity. unfold send_chk. cbn [filter].
    destruct (can_encode r0); cbn [map concat]; [rewrite app_nil_r|]; reflexivity.
  Qed.

  Lemma recv_code_ascii : forall buf chunks r b' ch',
    reply_recv udigit uspace buf chunks = GotReply r b' ch' -> is_code (r_code r).
  Proof.
    intros buf chunks r b' ch' H. unfold reply_recv in H.
    destruct (recv_reply buf chunks) as [c body b1 ch1|b1 ch1|] eqn:R; try discriminate.
    destruct (utf8_dec body) as [t0|]; [|discriminate].
    destruct (code_ok c); [|discriminate]. inversion H; subst.
    rewrite (new_reply_code udigit uspace).
    destruct (ok_is_wellformed _ _ _ _ _ _ R) as [pre [txts [_ [W _]]]]. exact (wf_code _ _ _ W).
  Qed.
End Sequence.

(* Examples for the setter chain (ASCII classes): the hypothesis of patterns_agree is
   satisfiable; a component of four digits is matched by NEITHER pattern, so such a
   text is plain text for the constructor (were message_esc_pattern to accept it,
   esc_pattern would refuse it and the constructor would raise). *)
Definition adigit (c : N) : bool := (48 <=? c) && (c <=? 57).
Definition aspace (c : N) : bool := (c =? 32) || ((9 <=? c) && (c <=? 13)).
Example patterns_agree_hyp :   (* "5.7.1 x" *)
  match_esc adigit aspace [53; 46; 55; 46; 49; 32; 120] = Some (53, [55], [49], [120]).
Proof. vm_compute. reflexivity. Qed.
Example four_digits_not_esc :  (* "2.1000.5 x" / "2.1000.5" *)
  match_esc adigit aspace [50; 46; 49; 48; 48; 48; 46; 53; 32; 120] = None /\
  match_esc_pattern adigit [50; 46; 49; 48; 48; 48; 46; 53] = None.
Proof. vm_compute. split; reflexivity. Qed.
Example four_digits_ctor :     (* Reply('250', '2.1000.5 x') keeps the text, shows '2.0.0 2.1000.5 x' *)
  reply_ctor adigit aspace [50; 53; 48] [50; 46; 49; 48; 48; 48; 46; 53; 32; 120]
  = CtorOk (mkReply [50; 53; 48] EscNone [50; 46; 49; 48; 48; 48; 46; 53; 32; 120]).
Proof. vm_compute. reflexivity. Qed.
Example ctor_bad_code : reply_ctor adigit aspace [54; 53; 48] [120] = CtorBadCode.
Proof. vm_compute. reflexivity. Qed.

(* Examples for the setter operations (ASCII classes): the handler pattern
   Reply('250', '2.1.5 Ok') then reply.code = '550' shows 5.1.5; message first, code
   afterwards; a refused code / ESC leaves the object as it was.  The hypotheses of
   C17_esc_class_follows_code are satisfiable by such a sequence. *)
Example ops_code_changed_after :   (* code 250; message "2.1.5 Ok"; code 550 *)
  let r := rops_run adigit aspace [ROCode [50;53;48]; ROMsg [50;46;49;46;53;32;79;107]; ROCode [53;53;48]] in
  get_esc r = Some [53;46;49;46;53] /\ get_message r = [53;46;49;46;53;32;79;107] /\
  r_esc r <> EscFalse /\ code_2xx_5xx (r_code r).
Proof.
  vm_compute. split; [reflexivity|]. split; [reflexivity|]. split; [discriminate|].
  exists 53, 53, 48. vm_compute. repeat split; discriminate.
Qed.
Example ops_message_first :        (* message "5.7.1 Denied" on a fresh object; code 450 -> 4.7.1; code 354 -> no ESC *)
  get_esc (rops_run adigit aspace [ROMsg [53;46;55;46;49;32;68]; ROCode [52;53;48]]) = Some [52;46;55;46;49] /\
  get_esc (rops_run adigit aspace [ROMsg [53;46;55;46;49;32;68]; ROCode [51;53;52]]) = None.
Proof. vm_compute. split; reflexivity. Qed.
Example ops_refused_setters :      (* code "650" and ESC "2.1000.1" are refused: nothing changes *)
  rops_run adigit aspace [ROCode [50;53;48]; ROEsc [50;46;51;46;52]; ROCode [54;53;48]; ROEsc [50;46;49;48;48;48;46;49]]
  = mkReply [50;53;48] (EscSome 50 [51] [52]) [].
Proof. vm_compute. reflexivity. Qed.
Example ops_send_copy_send :      (* Reply('250', 'Ok'); send; copy(Reply('503', '5.5.1 Bad')); send: the second write is the 503 *)
  map shown_of (rops_sent adigit aspace fresh_reply
     [ROCode [50;53;48]; ROMsg [79;107]; ROSend;
      ROCopy (rops_run adigit aspace [ROCode [53;48;51]; ROMsg [53;46;53;46;49;32;66;97;100]]); ROSend])
  = [([50;53;48], [50;46;48;46;48;32;79;107]); ([53;48;51], [53;46;53;46;49;32;66;97;100])].
Proof. vm_compute. reflexivity. Qed.
Example ops_failed_send_writes_nothing :   (* Reply('550', "a\n<lone surrogate>"); send fails; copy(Reply('421', '4.3.0 E')); send *)
  rops_out adigit aspace fresh_reply
     [ROCode [53;53;48]; ROMsg [97;10;55296]; ROSend;
      ROCopy (rops_run adigit aspace [ROCode [52;50;49]; ROMsg [52;46;51;46;48;32;69]]); ROSend]
  = [52;50;49;32;52;46;51;46;48;32;69;13;10].
Proof. vm_compute. reflexivity. Qed.
Example bad_reply_hyp :    (* "ok\n250 x\r\n": the first line is refused and consumed, the reply behind it stays *)
  reply_recv adigit aspace [111;107;10;50;53;48;32;120;13;10] [] = BadReply [50;53;48;32;120;13;10] [].
Proof. vm_compute. reflexivity. Qed.
Example non_ascii_code_refused :   (* "2" + fullwidth 5 (EF BC 95) + fullwidth 0 (EF BC 90) + " ok\r\n" then "250 x\r\n": BadReply, the line consumed *)
  reply_recv adigit aspace [50;239;188;149;239;188;144;32;111;107;13;10;50;53;48;32;120;13;10] [] = BadReply [50;53;48;32;120;13;10] [].
Proof. vm_compute. reflexivity. Qed.
