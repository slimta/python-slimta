(* Lemmas about model/Hop.v for property C06; the theorems of prop/C06.v are
   instances of them or follow from them in a few lines.
   In order: facts about lists and the model's list helpers (drop_while, span,
   rstrip, last_or); Base64; the EHLO text; UTF-8 and the quote scanner, which
   runs over the encoding of a text as over the text, so that the Mailbox
   grammar is checked against it on code points; MAIL and RCPT lines through
   the server; the HTTP headers; the hop; the client's extensions over the
   wire; instances of the hypotheses. *)
From Coq Require Import List PeanoNat NArith Bool Lia ZifyBool ZifyN.
From SV Require Import lib.Bytes gen.UnicodeTables model.Hop.
From SV Require Import proof.List_lemmas proof.Arith_lemmas proof.Bytes_lemmas proof.Unicode_lemmas.
From SV Require proof.Reply_lemmas proof.Data_lemmas proof.Envelope_lemmas.
Import ListNotations.
Open Scope N_scope.

Definition is_byte (b : N) : Prop := b < 256.

Lemma digit_udigit d : is_digit d = true -> udigit d = true.
Proof.
  intros H. assert (T : forallb udigit [48; 49; 50; 51; 52; 53; 54; 55; 56; 57] = true) by (vm_compute; reflexivity).
  rewrite forallb_forall in T. apply T. unfold is_digit in H. cbn [In]. lia.
Qed.

Lemma drop_while_stop : forall p c r, p c = false -> drop_while p (c :: r) = c :: r.
Proof. intros p c r H. cbn. rewrite H. reflexivity. Qed.

Lemma drop_while_all : forall p a r, forallb p a = true -> drop_while p (a ++ r) = drop_while p r.
Proof.
  induction a as [|x a IH]; intros r H; [reflexivity|].
  apply andb_true_iff in H as [H1 H2]. cbn. rewrite H1. apply IH, H2.
Qed.

Lemma drop_while_all_nil : forall p a, forallb p a = true -> drop_while p a = [].
Proof. intros p a H. rewrite <- (app_nil_r a). apply (drop_while_all p a [] H). Qed.

Definition stops (p : N -> bool) (r : list N) : Prop :=
  match r with [] => True | c :: _ => p c = false end.

Lemma span_app : forall p a r, forallb p a = true -> stops p r -> span p (a ++ r) = (a, r).
Proof.
  induction a as [|x a IH]; intros r H S.
  - destruct r as [|c r]; [reflexivity|]. cbn in *. rewrite S. reflexivity.
  - apply andb_true_iff in H as [H1 H2]. cbn. rewrite H1, (IH r H2 S). reflexivity.
Qed.

Lemma span_all : forall p a, forallb p a = true -> span p a = (a, []).
Proof. intros p a H. rewrite <- (app_nil_r a) at 1. apply span_app; [exact H|exact I]. Qed.

Lemma rstrip_nil : forall p, rstrip p [] = [].
Proof. reflexivity. Qed.

Lemma last_or_app2 d a b : last_or d (a ++ b) = last_or (last_or d a) b.
Proof. revert d. induction a as [|x a IH]; intro d; [reflexivity|apply IH]. Qed.

Lemma last_or_app : forall d s c, last_or d (s ++ [c]) = c.
Proof. intros d s c. apply last_or_app2. Qed.

Lemma last_or_forallb (p : N -> bool) d l : p d = true -> forallb p l = true -> p (last_or d l) = true.
Proof.
  revert d. induction l as [|x l IH]; intros d Hd H; [exact Hd|].
  apply andb_true_iff in H as [H1 H2]. exact (IH x H1 H2).
Qed.

Lemma rstrip_last p c r : p (last_or c r) = false -> rstrip p (c :: r) = c :: r.
Proof.
  intro H. assert (E : exists s, c :: r = s ++ [last_or c r]).
  { clear H. revert c. induction r as [|x r IH]; intro c; [exists []; reflexivity|].
    destruct (IH x) as [s E]. exists (c :: s). cbn [last_or app]. rewrite <- E. reflexivity. }
  destruct E as [s E]. rewrite E. unfold rstrip. rewrite rev_unit. cbn [drop_while]. rewrite H.
  cbn [rev]. rewrite rev_involutive. reflexivity.
Qed.

Lemma b64val_chr : forall v, v < 64 -> b64val (b64chr v) = Some v.
Proof.
  intros v H. unfold b64chr, b64val, is_upper, is_lower, is_digit.
  destruct (v <? 26) eqn:E1.
  { replace ((65 <=? 65 + v) && (65 + v <=? 90)) with true by lia. f_equal. lia. }
  destruct (v <? 52) eqn:E2.
  { replace ((65 <=? 71 + v) && (71 + v <=? 90)) with false by lia.
    replace ((97 <=? 71 + v) && (71 + v <=? 122)) with true by lia. f_equal. lia. }
  destruct (v <? 62) eqn:E3.
  { replace ((65 <=? v - 4) && (v - 4 <=? 90)) with false by lia.
    replace ((97 <=? v - 4) && (v - 4 <=? 122)) with false by lia.
    replace ((48 <=? v - 4) && (v - 4 <=? 57)) with true by lia. f_equal. lia. }
  assert (v = 62 \/ v = 63) as [-> | ->] by lia; reflexivity.
Qed.

(* the characters base64 text is made of: alphabet and "=" *)
Definition b64c (c : N) : bool := is_alnum c || (c =? 43) || (c =? 47) || (c =? 61).

(* also for i >= 64, where b64chr gives "/" *)
Lemma b64chr_b64c i : b64c (b64chr i) = true.
Proof.
  unfold b64chr, b64c, is_alnum, is_alpha, is_upper, is_lower, is_digit.
  destruct (i <? 26) eqn:E1; [lia|]. destruct (i <? 52) eqn:E2; [lia|].
  destruct (i <? 62) eqn:E3; [lia|]. destruct (i =? 62); reflexivity.
Qed.

Lemma b64c_ascii : forall c, b64c c = true -> (c <? 128) = true.
Proof. intros c H. unfold b64c, is_alnum, is_alpha, is_upper, is_lower, is_digit in H. lia. Qed.

Lemma b64chr_ascii : forall i, i < 64 -> b64chr i <? 128 = true.
Proof. intros i _. apply b64c_ascii, b64chr_b64c. Qed.

Lemma b64loop_chr : forall v s q l p, v < 64 ->
  b64loop (b64chr v :: s) q l p =
  match q with
  | Q0 => b64loop s Q1 v 0
  | Q1 => bcons (l * 4 + v / 16) (b64loop s Q2 (v mod 16) 0)
  | Q2 => bcons (l * 16 + v / 4) (b64loop s Q3 (v mod 4) 0)
  | Q3 => bcons (l * 64 + v) (b64loop s Q0 0 0)
  end.
Proof.
  intros v s q l p H. pose proof (b64val_chr v H) as V. cbn [b64loop].
  destruct (N.eqb_spec (b64chr v) 61) as [E|_]; [rewrite E in V; discriminate V|].
  rewrite V. reflexivity.
Qed.

Lemma b64loop_quad : forall v1 v2 v3 v4 s l p, v1 < 64 -> v2 < 64 -> v3 < 64 -> v4 < 64 ->
  b64loop (b64chr v1 :: b64chr v2 :: b64chr v3 :: b64chr v4 :: s) Q0 l p =
  bcons (v1 * 4 + v2 / 16) (bcons (v2 mod 16 * 16 + v3 / 4) (bcons (v3 mod 4 * 64 + v4) (b64loop s Q0 0 0))).
Proof. intros. rewrite !b64loop_chr by assumption. reflexivity. Qed.

Lemma b64loop_pad2 : forall v1 v2 l p, v1 < 64 -> v2 < 64 ->
  b64loop [b64chr v1; b64chr v2; 61; 61] Q0 l p = B64Ok [v1 * 4 + v2 / 16].
Proof. intros. rewrite !b64loop_chr by assumption. reflexivity. Qed.

Lemma b64loop_pad1 : forall v1 v2 v3 l p, v1 < 64 -> v2 < 64 -> v3 < 64 ->
  b64loop [b64chr v1; b64chr v2; b64chr v3; 61] Q0 l p = B64Ok [v1 * 4 + v2 / 16; v2 mod 16 * 16 + v3 / 4].
Proof. intros. rewrite !b64loop_chr by assumption. reflexivity. Qed.

Lemma b64_roundtrip : forall s, Forall is_byte s -> b64dec (b64enc s) = B64Ok s.
Proof.
  unfold b64dec, is_byte.
  induction s as [|a|a b|a b c s IH] using list_ind3; intros Hs; cbn [b64enc].
  - reflexivity.
  - inversion_clear Hs as [|? ? Ha _].
    rewrite b64loop_pad2 by lia. rewrite N.div_mul, digits_eq by discriminate. reflexivity.
  - inversion_clear Hs as [|? ? Ha Hs']. inversion_clear Hs' as [|? ? Hb _].
    rewrite b64loop_pad1 by lia. destruct (digits_lt 16 16 b Hb) as [B1 _].
    rewrite digits_div, digits_mod, N.div_mul, !digits_eq by (assumption || discriminate). reflexivity.
  - inversion_clear Hs as [|? ? Ha Hs']. inversion_clear Hs' as [|? ? Hb Hs]. inversion_clear Hs as [|? ? Hc Hs'].
    rewrite b64loop_quad, (IH Hs') by lia. destruct (digits_lt 16 16 b Hb) as [B1 _], (digits_lt 64 4 c Hc) as [C1 _].
    rewrite !digits_div, !digits_mod, !digits_eq by assumption. reflexivity.
Qed.

Lemma b64enc_chars s : forallb b64c (b64enc s) = true.
Proof.
  induction s as [|a|a b|a b c s IH] using list_ind3; cbn [b64enc forallb];
    rewrite ?b64chr_b64c, ?IH; reflexivity.
Qed.

Lemma b64enc_nonempty : forall s, s <> [] -> b64enc s <> [].
Proof. intros [|a [|b [|c s]]] H; [contradiction| | |]; cbn; discriminate. Qed.

Lemma kwchar_not_space : forall c, is_kwchar c = true -> uspace c = false.
Proof.
  intros c H. apply (rdisj_sound [(45, 45); (48, 57); (65, 90); (97, 122)] uspace_ranges); [vm_compute; reflexivity|].
  unfold is_kwchar, is_alnum, is_alpha, is_upper, is_lower, is_digit in H. cbn [in_ranges]. lia.
Qed.

(* extension names as servers hold them: [A-Z0-9][A-Z0-9-]* *)
Definition name_char1 (c : N) : bool := is_upper c || is_digit c.
Definition name_char (c : N) : bool := is_upper c || is_digit c || (c =? 45).
Definition ext_name_ok (k : text) : bool :=
  match k with c :: r => name_char1 c && forallb name_char r | [] => false end.
(* parameters: absent, or a non-empty text without line feed that neither begins
   nor ends with white space *)
Definition param_ok (v : option text) : bool :=
  match v with
  | None => true
  | Some [] => false
  | Some (c :: r) => negb (uspace c) && negb (uspace (last_or c r)) && forallb (fun x => negb (x =? 10)) (c :: r)
  end.
Definition wf_exts (e : exts) : Prop :=
  forallb (fun kv => ext_name_ok (fst kv) && param_ok (snd kv)) e = true /\ NoDup (map fst e).
Definition header_ok (h : text) : Prop := h <> [] /\ nolf h.

Lemma name_char_kw : forall c, name_char c = true -> is_kwchar c = true.
Proof. intros c H. unfold name_char, is_kwchar, is_alnum, is_alpha, is_upper, is_lower, is_digit in *. lia. Qed.

Lemma name_char_upper : forall c, name_char c = true -> to_upper c = c.
Proof.
  intros c H. unfold name_char, to_upper, is_upper, is_lower, is_digit in *.
  destruct ((97 <=? c) && (c <=? 122)) eqn:E; [lia|reflexivity].
Qed.

Lemma name_char_nolf : forall c, name_char c = true -> c <> 10.
Proof. intros c H. unfold name_char, is_upper, is_digit in H. lia. Qed.

Lemma name_ok_inv : forall k, ext_name_ok k = true ->
  exists c r, k = c :: r /\ is_alnum c = true /\ forallb name_char (c :: r) = true.
Proof.
  intros [|c r] H; [discriminate|]. apply andb_true_iff in H as [H1 H2].
  exists c, r. split; [reflexivity|]. cbn [forallb]. rewrite H2.
  unfold name_char1, name_char, is_alnum, is_alpha, is_upper, is_lower, is_digit in *. lia.
Qed.

Lemma upper_names : forall k, forallb name_char k = true -> upper k = k.
Proof.
  induction k as [|c k IH]; intro H; [reflexivity|]. apply andb_true_iff in H as [H1 H2].
  unfold upper in *. cbn. rewrite (name_char_upper c H1), (IH H2). reflexivity.
Qed.

Lemma param_ok_inv : forall vc vr, param_ok (Some (vc :: vr)) = true ->
  uspace vc = false /\ uspace (last_or vc vr) = false /\ forallb (fun x => negb (x =? 10)) (vc :: vr) = true.
Proof.
  intros vc vr H. unfold param_ok in H. rewrite !andb_true_iff, !negb_true_iff in H. tauto.
Qed.

Lemma ext_line_eq k v :
  ext_line (k, v) = k ++ match v with Some (c :: r) => 32 :: c :: r | _ => [] end.
Proof. destruct v as [[|c r]|]; cbn; rewrite ?app_nil_r; reflexivity. Qed.

Lemma parse_ext_line_shape : forall c r rest,
  uspace c = false -> is_alnum c = true -> forallb is_kwchar (c :: r) = true -> stops is_kwchar rest ->
  parse_ext_line ((c :: r) ++ rest) = Some (c :: r, rstrip uspace (drop_while uspace rest)).
Proof.
  intros c r rest Hsp Hc Hkw St. unfold parse_ext_line. cbn [app].
  rewrite drop_while_stop by exact Hsp. rewrite Hc.
  change (c :: r ++ rest) with ((c :: r) ++ rest). rewrite (span_app is_kwchar (c :: r) rest Hkw St).
  reflexivity.
Qed.

Lemma parse_ext_line_ok : forall k v, ext_name_ok k = true -> param_ok v = true ->
  parse_ext_line (ext_line (k, v)) = Some (k, match v with Some x => x | None => [] end).
Proof.
  intros k v Hk Hv. destruct (name_ok_inv k Hk) as (c & r & -> & Hc & Hall).
  pose proof (forallb_impl _ _ _ name_char_kw Hall) as Hkw.
  assert (Hsp : uspace c = false) by (apply kwchar_not_space; apply andb_true_iff in Hkw; tauto).
  rewrite ext_line_eq. destruct v as [[|vc vr]|]; [discriminate| |].
  - destruct (param_ok_inv vc vr Hv) as (Hv1 & Hv2 & _).
    rewrite parse_ext_line_shape by (assumption || reflexivity).
    cbn [drop_while]. rewrite uspace_32, Hv1, (rstrip_last _ _ _ Hv2). reflexivity.
  - rewrite parse_ext_line_shape by (assumption || exact I). reflexivity.
Qed.

Lemma ext_add_absent : forall k v acc, ~ In k (map fst acc) -> ext_add k v acc = acc ++ [(k, v)].
Proof.
  intros k v. induction acc as [|[k' v'] acc IH]; intro H; [reflexivity|].
  cbn in *. destruct (beqb k' k) eqn:E.
  - apply beqb_eq in E. tauto.
  - rewrite IH by tauto. reflexivity.
Qed.

Lemma fold_ps : forall e c h acc,
  forallb (fun kv => ext_name_ok (fst kv) && param_ok (snd kv)) e = true ->
  NoDup (map fst acc ++ map fst e) ->
  fold_left ps_step (map ext_line e) (Some (c :: h), acc) = (Some (c :: h), acc ++ e).
Proof.
  induction e as [|[k v] e IH]; intros c h acc W D.
  - cbn. rewrite app_nil_r. reflexivity.
  - cbn [forallb fst snd] in W. rewrite !andb_true_iff in W. destruct W as [[Wk Wv] W2].
    cbn [map fold_left]. unfold ps_step at 2. cbn [fst snd].
    rewrite (parse_ext_line_ok k v Wk Wv).
    destruct (name_ok_inv k Wk) as (kc & kr & Ek & _ & Hall).
    rewrite upper_names by (rewrite Ek; exact Hall).
    replace (match match v with Some x => x | None => [] end with [] => None | _ :: _ => _ end) with v
      by (destruct v as [[|vc vr]|]; [discriminate|reflexivity|reflexivity]).
    cbn [map] in D. rewrite ext_add_absent.
    + rewrite IH; [rewrite <- app_assoc; reflexivity|exact W2|].
      rewrite map_app, <- app_assoc. exact D.
    + intro Hin. apply NoDup_remove_2 in D. apply D, in_or_app. left. exact Hin.
Qed.

Lemma split_lf_join l ls : Forall nolf (l :: ls) ->
  split_lf (join CRLF (l :: ls) ++ CRLF) = (map (fun l => l ++ [13]) (l :: ls), []).
Proof.
  revert l. induction ls as [|x ls IH]; intros l F; inversion_clear F as [|? ? Hl F'].
  - cbn [join map]. rewrite <- (app_nil_r CRLF), crlf_snoc, split_lf_line by apply nolf_snoc_cr, Hl. reflexivity.
  - change (join CRLF (l :: x :: ls)) with (l ++ CRLF ++ join CRLF (x :: ls)).
    rewrite <- !app_assoc, crlf_snoc, split_lf_line, (IH x F') by apply nolf_snoc_cr, Hl. reflexivity.
Qed.

Lemma map_strip_cr_snoc : forall ls, map strip_cr (map (fun l => l ++ [13]) ls) = ls.
Proof. intro ls. rewrite map_map. erewrite map_ext; [apply map_id|]. apply strip_cr_snoc. Qed.

Lemma ext_line_nolf : forall k v, ext_name_ok k = true -> param_ok v = true -> nolf (ext_line (k, v)).
Proof.
  intros k v Hk Hv. destruct (name_ok_inv k Hk) as (c & r & -> & _ & Hall).
  rewrite ext_line_eq. apply nolf_app. split.
  - exact (forallb_Forall _ _ _ name_char_nolf Hall).
  - destruct v as [[|vc vr]|]; [constructor| |constructor].
    destruct (param_ok_inv vc vr Hv) as (_ & _ & Hlf). constructor; [discriminate|exact (proj1 (nolfb_iff _) Hlf)].
Qed.

Lemma build_lines_nolf h e : header_ok h -> wf_exts e -> Forall nolf (h :: map ext_line e).
Proof.
  intros [_ Hh] [W _]. constructor; [exact Hh|]. apply Forall_map. revert W. apply forallb_Forall. intros [k v] H. apply andb_true_iff in H as [Hk Hv]. apply ext_line_nolf; assumption.
Qed.

Theorem ext_roundtrip : forall h e, header_ok h -> wf_exts e ->
  parse_string [] (build_string h e) = (h, e).
Proof.
  intros h e Hh He. unfold parse_string, build_string.
  rewrite split_lf_join by (apply build_lines_nolf; assumption). cbn [fst]. rewrite map_strip_cr_snoc.
  destruct Hh as [Hne _], He as [W D]. destruct h as [|c h]; [contradiction|].
  cbn [fold_left].
  change (ps_step (None, []) (c :: h)) with (Some (c :: h), @nil (text * option text)).
  rewrite fold_ps by (exact W || exact D). reflexivity.
Qed.

Import Reply.

Lemma enc1_byte : forall c, valid_cp c = true -> Forall is_byte (utf8_enc1 c).
Proof.
  intros c H. unfold valid_cp in H. unfold utf8_enc1, is_byte.
  assert (M : forall x, 128 + x mod 64 < 256) by (intro x; lia).
  destruct (c <? 128) eqn:E1; [repeat constructor; lia|].
  destruct (c <? 2048) eqn:E2; [|destruct (c <? 65536) eqn:E3]; repeat constructor; (apply M || lia).
Qed.

Lemma valid_enc_bytes : forall t, forallb valid_cp t = true -> Forall is_byte (utf8_enc t).
Proof.
  intros t H. apply Forall_flat_map. revert H. apply forallb_Forall, enc1_byte.
Qed.

Lemma enc_ascii : forall t, is_ascii_text t = true -> utf8_enc t = t.
Proof.
  induction t as [|c t IH]; intro H; [reflexivity|]. apply andb_true_iff in H as [H1 H2].
  rewrite Reply_lemmas.utf8_enc_ascii, (IH H2) by lia. reflexivity.
Qed.

(* the loop variables of find_gt after s; None: an unquoted ">" was met *)
Fixpoint qstate (q e : bool) (s : bytes) : option (bool * bool) :=
  match s with
  | [] => Some (q, e)
  | c :: s' =>
      if negb q then (if c =? 62 then None else qstate (c =? 34) false s')
      else if e then qstate true false s'
      else if c =? 92 then qstate true true s'
      else qstate (negb (c =? 34)) false s'
  end.

Lemma find_gt_end : forall s q e r, qstate q e s = Some (false, false) ->
  find_gt q e (s ++ 62 :: r) = Some (s, r).
Proof.
  induction s as [|c s IH]; intros q e r H.
  - injection H as -> ->. reflexivity.
  - cbn [qstate] in H. cbn [app find_gt].
    destruct (negb q); [destruct (c =? 62); [discriminate|]|destruct e; [|destruct (c =? 92)]];
      rewrite (IH _ _ r H); reflexivity.
Qed.

Lemma qstate_app : forall a b q e,
  qstate q e (a ++ b) = match qstate q e a with Some (q', e') => qstate q' e' b | None => None end.
Proof.
  induction a as [|c a IH]; intros b q e; [reflexivity|]. cbn [app qstate].
  destruct (negb q); [destruct (c =? 62); [reflexivity|apply IH]|].
  destruct e; [apply IH|]. destruct (c =? 92); apply IH.
Qed.

(* bytes >= 128 are no delimiters; at most they use up a pending escape *)
Lemma qstate_high : forall bs q e, bs <> [] -> Forall (fun b => 128 <= b) bs -> qstate q e bs = Some (q, false).
Proof.
  induction bs as [|b bs IH]; intros q e Hne F; [contradiction|]. inversion_clear F as [|? ? Hb Hbs].
  cbn [qstate]. replace (b =? 62) with false by lia. replace (b =? 34) with false by lia.
  replace (b =? 92) with false by lia.
  destruct bs as [|b2 bs]; [destruct q, e; reflexivity|].
  destruct q; cbn [negb]; [destruct e|]; apply IH; (discriminate || assumption).
Qed.

Lemma qstate_enc : forall t q e, qstate q e (utf8_enc t) = qstate q e t.
Proof.
  induction t as [|c t IH]; intros q e; [reflexivity|]. destruct (N.ltb_spec c 128) as [Hc|Hc].
  - rewrite Reply_lemmas.utf8_enc_ascii by exact Hc. cbn [qstate].
    destruct (negb q); [destruct (c =? 62); [reflexivity|apply IH]|].
    destruct e; [apply IH|]. destruct (c =? 92); apply IH.
  - destruct (Reply_lemmas.enc1_shape c) as [[L _]|(b & r & E & F)]; [lia|].
    rewrite Reply_lemmas.utf8_enc_cons, E. change (c :: t) with ([c] ++ t).
    rewrite !qstate_app, (qstate_high (b :: r)), (qstate_high [c])
      by (discriminate || assumption || (repeat constructor; exact Hc)).
    apply IH.
Qed.

(* the characters of a well-formed address, and those among them that leave the scanner where it is *)
Definition okc (u : bool) (c : N) : bool := ((32 <=? c) && (c <? 127)) || uni u c.
Definition plainc (u : bool) (c : N) : bool := okc u c && negb (c =? 34) && negb (c =? 62).

Lemma okc_valid : forall u c, okc u c = true -> valid_cp c = true.
Proof. intros u c H. unfold okc, uni in H. unfold valid_cp, is_surrogate in *. destruct u; lia. Qed.

Lemma okc_ascii : forall c, okc false c = true -> c <? 128 = true.
Proof. intros c H. unfold okc, uni in H. cbn [andb] in H. lia. Qed.

Lemma okc_enc : forall u t, forallb (okc u) t = true -> Forall (fun b => 32 <= b) (utf8_enc t).
Proof.
  intros u t H. apply Forall_flat_map. revert H. apply forallb_Forall.
  intros c H. destruct (Reply_lemmas.enc1_shape c) as [[_ ->]|(b & r & -> & F)].
  - unfold okc, uni in H. repeat constructor. destruct u; lia.
  - revert F. apply Forall_impl. lia.
Qed.

Lemma plainc_okc : forall u c, plainc u c = true -> okc u c = true.
Proof. intros u c H. unfold plainc in H. rewrite !andb_true_iff in H. tauto. Qed.

Lemma qstate_plain : forall u t, forallb (plainc u) t = true -> qstate false false t = Some (false, false).
Proof.
  induction t as [|c t IH]; intro H; [reflexivity|]. apply andb_true_iff in H as [Hc Ht].
  unfold plainc in Hc. rewrite !andb_true_iff, !negb_true_iff in Hc. destruct Hc as [[_ H34] H62].
  cbn. rewrite H62, H34. exact (IH Ht).
Qed.

Lemma atext_plain : forall u c, atext u c = true -> plainc u c = true.
Proof.
  intros u c H. unfold atext, is_alnum, is_alpha, is_upper, is_lower, is_digit in H.
  unfold plainc, okc. unfold uni in *. unfold valid_cp, is_surrogate in *. destruct u; lia.
Qed.

Lemma let_dig_plain : forall u c, let_dig u c = true -> plainc u c = true.
Proof.
  intros u c H. unfold let_dig, is_alnum, is_alpha, is_upper, is_lower, is_digit in H.
  unfold plainc, okc. unfold uni in *. unfold valid_cp, is_surrogate in *. destruct u; lia.
Qed.

Lemma qtext_okc : forall u c, qtext u c = true -> okc u c = true.
Proof.
  intros u c H. unfold qtext in H. unfold okc. unfold uni in *. unfold valid_cp, is_surrogate in *. destruct u; lia.
Qed.

Lemma dcontent_plain : forall u c, dcontent c = true -> plainc u c = true.
Proof. intros u c H. unfold dcontent in H. unfold plainc, okc. lia. Qed.

Lemma dot_string_plain : forall u l need, dot_string u need l = true -> forallb (plainc u) l = true.
Proof.
  induction l as [|c l IH]; intros need H; [reflexivity|]. cbn [dot_string] in H. cbn [forallb].
  destruct (atext u c) eqn:Ea.
  - rewrite (atext_plain u c Ea). exact (IH _ H).
  - destruct ((c =? 46) && negb need) eqn:Ed; [|discriminate].
    rewrite (IH _ H). assert (c = 46) as -> by lia. reflexivity.
Qed.

Lemma domain_name_plain : forall u d st, domain_name u st d = true -> forallb (plainc u) d = true.
Proof.
  induction d as [|c d IH]; intros st H; [reflexivity|]. cbn [domain_name] in H. cbn [forallb].
  destruct (let_dig u c) eqn:El.
  - rewrite (let_dig_plain u c El). exact (IH _ H).
  - destruct ((c =? 45) && negb (st =? 0)) eqn:E1.
    + rewrite (IH _ H). assert (c = 45) as -> by lia. reflexivity.
    + destruct ((c =? 46) && (st =? 1)) eqn:E2; [|discriminate].
      rewrite (IH _ H). assert (c = 46) as -> by lia. reflexivity.
Qed.

(* A `match` on a numeral is a tree of matches on its binary digits: walk the tree
   (numerals below 128), closing with `tac` the branches that are not the numeral. *)
Ltac numeral c tac :=
  destruct c as [|c]; [tac|]; do 7 (try (destruct c as [c|c|]; try tac)).

Lemma addr_literal_inv : forall d, addr_literal d = true ->
  exists m, d = 91 :: rev m ++ [93] /\ forallb dcontent m = true.
Proof.
  unfold addr_literal. intros [|b s] H; [discriminate|]. numeral b ltac:(discriminate H).
  destruct (rev s) as [|x m] eqn:Er; [discriminate|]. numeral x ltac:(discriminate H).
  apply andb_true_iff in H as [_ Hm]. exists m. split; [|exact Hm].
  rewrite <- (rev_involutive s), Er. reflexivity.
Qed.

Lemma wf_domain_plain : forall u d, wf_domain u d = true -> forallb (plainc u) d = true.
Proof.
  intros u d H. apply orb_true_iff in H as [H|H]; [exact (domain_name_plain u d 0 H)|].
  destruct (addr_literal_inv d H) as (m & -> & Hm).
  cbn [forallb]. rewrite forallb_app. cbn [forallb].
  rewrite (forallb_impl _ _ _ (dcontent_plain u)); [reflexivity|].
  rewrite forallb_forall in *. intros c Hc. apply Hm, in_rev, Hc.
Qed.

Lemma split_at_app : forall a l d, split_at a = Some (l, d) -> a = l ++ 64 :: d.
Proof.
  induction a as [|c a IH]; intros l d H; [discriminate|]. cbn [split_at] in H.
  destruct (N.eqb_spec c 64) as [->|_].
  - injection H as <- <-. reflexivity.
  - destruct (split_at a) as [[a1 b1]|]; [|discriminate]. injection H as <- <-.
    rewrite (IH a1 b1 eq_refl). reflexivity.
Qed.

Lemma quoted_tail_scan : forall u n s r, (length s <= n)%nat -> quoted_tail u s = Some r ->
  (forallb (okc u) r = true -> forallb (okc u) s = true) /\ qstate true false s = qstate false false r.
Proof.
  intros u n. induction n as [|n IH]; intros s r L H; (destruct s as [|c s]; [discriminate|]); [cbn in L; lia|].
  cbn [quoted_tail] in H. destruct (c =? 34) eqn:E34.
  { injection H as <-. apply N.eqb_eq in E34 as ->. split; [intro Hr; cbn [forallb]; rewrite Hr|]; reflexivity. }
  destruct (c =? 92) eqn:E92.
  - destruct s as [|d s]; [discriminate|]. destruct (qpair2 d) eqn:Eq; [|discriminate].
    apply N.eqb_eq in E92 as ->. destruct (IH s r ltac:(cbn in L; lia) H) as [Hok Hq]. split; [|exact Hq].
    intro Hr. cbn [forallb]. rewrite (Hok Hr). unfold qpair2 in Eq. unfold okc.
    replace ((32 <=? d) && (d <? 127)) with true by lia. reflexivity.
  - destruct (qtext u c) eqn:Et; [|discriminate].
    destruct (IH s r ltac:(cbn in L; lia) H) as [Hok Hq]. split.
    + intro Hr. cbn [forallb]. rewrite (Hok Hr), (qtext_okc u c Et). reflexivity.
    + cbn [qstate negb]. rewrite E92, E34. exact Hq.
Qed.

Lemma wf_mailbox_scan : forall u a, wf_mailbox u a = true ->
  forallb (okc u) a = true /\ qstate false false a = Some (false, false).
Proof.
  intros u [|c s] H; [discriminate|]. unfold wf_mailbox in H.
  assert (Hd : forall d, wf_domain u d = true -> forallb (plainc u) (64 :: d) = true).
  { intros d Hd. cbn [forallb]. rewrite (wf_domain_plain u d Hd). reflexivity. }
  destruct (N.eq_dec c 34) as [->|Hc].
  - destruct (quoted_tail u s) as [[|at_ d]|] eqn:Eq; try discriminate.
    apply andb_true_iff in H as [Hat H]. apply N.eqb_eq in Hat as ->. apply Hd in H.
    destruct (quoted_tail_scan u (length s) s _ (le_n _) Eq) as [Hok Hq]. split.
    + cbn [forallb]. rewrite Hok by exact (forallb_impl _ _ _ (plainc_okc u) H). reflexivity.
    + cbn. rewrite Hq. exact (qstate_plain u _ H).
  - assert (Hsp : match split_at (c :: s) with
                  | Some (l, d) => dot_string u true l && wf_domain u d
                  | None => false end = true).
    { numeral c ltac:(exact H). contradiction Hc. reflexivity. }
    destruct (split_at (c :: s)) as [[l d]|] eqn:Es; [|discriminate].
    apply andb_true_iff in Hsp as [Hl Hw].
    assert (Hp : forallb (plainc u) (c :: s) = true).
    { rewrite (split_at_app _ _ _ Es), forallb_app, (dot_string_plain u l true Hl). exact (Hd d Hw). }
    split; [exact (forallb_impl _ _ _ (plainc_okc u) Hp)|exact (qstate_plain u _ Hp)].
Qed.

(* what the client's encoding of a well-formed address looks like *)
Definition wire_ok (a : text) (bs : bytes) : Prop :=
  utf8_dec bs = Some a /\ Forall (fun b => 32 <= b) bs /\ qstate false false bs = Some (false, false).

Lemma encode_wf_chars : forall u a,
  forallb (okc u) a = true -> qstate false false a = Some (false, false) ->
  exists bs, encode u a = Some bs /\ wire_ok a bs.
Proof.
  intros u a Hok Hq. pose proof (forallb_impl _ _ _ (okc_valid u) Hok) as Hv.
  assert (W : wire_ok a (utf8_enc a)).
  { split; [apply Reply_lemmas.utf8_dec_enc; revert Hv; apply forallb_Forall; auto|].
    split; [exact (okc_enc u a Hok)|]. rewrite qstate_enc. exact Hq. }
  unfold encode. destruct u.
  - rewrite Hv. eauto.
  - pose proof (forallb_impl _ _ _ okc_ascii Hok : is_ascii_text a = true) as Ha.
    rewrite Ha. rewrite (enc_ascii a Ha) in W. eauto.
Qed.

Lemma encode_mailbox : forall u a, wf_mailbox u a = true -> exists bs, encode u a = Some bs /\ wire_ok a bs.
Proof. intros u a H. destruct (wf_mailbox_scan u a H). apply encode_wf_chars; assumption. Qed.

Lemma encode_sender : forall u a, wf_sender u a = true -> exists bs, encode u a = Some bs /\ wire_ok a bs.
Proof. intros u [|c s] H; [apply encode_wf_chars; reflexivity|exact (encode_mailbox u _ H)]. Qed.

Lemma recv_line_sent : forall c t, nolf c -> recv_line (send_command c ++ t) = Some (c, t).
Proof.
  intros c t H. unfold recv_line, send_command.
  rewrite <- app_assoc, crlf_snoc, take_line_line, strip_cr_snoc by apply nolf_snoc_cr, H. reflexivity.
Qed.

Definition nonws (b : N) : bool := negb (is_ws b).

Lemma parse_command_arg : forall name c rest,
  name <> [] -> forallb is_alpha name = true -> is_ws c = false -> is_ws (last_or c rest) = false ->
  parse_command (name ++ 32 :: c :: rest) = Cmd (upper name) (Some (c :: rest)).
Proof.
  intros name c rest Hne Ha Hc He. unfold parse_command.
  rewrite (span_app is_alpha name (32 :: c :: rest) Ha) by reflexivity.
  destruct name as [|n0 name']; [contradiction|].
  change (is_ws 32) with true. cbn [drop_while]. change (is_ws 32) with true. cbn iota. rewrite Hc.
  rewrite (rstrip_last is_ws c rest He). reflexivity.
Qed.

Lemma server_line_cmd : forall s l r n a,
  recv_line s = Some (l, r) -> parse_command l = Cmd n (Some a) ->
  server_line s = if beqb n C_MAIL then LMail (parse_mail a) r
                  else if beqb n C_RCPT then LRcpt (parse_rcpt a) r else LOther n (Some a).
Proof. intros s l r n a H1 H2. unfold server_line. rewrite H1, H2. reflexivity. Qed.

Definition FROM_LT : bytes := [70; 82; 79; 77; 58; 60].

(* one optional piece " KEY=value" appended by the client, and the parameter the
   server makes of it: a key with an empty value counts as a key without value *)
Definition piece (key v : bytes) : bytes := 32 :: key ++ 61 :: v.
Definition pval_of (v : bytes) : pval := match v with [] => PTrue | _ :: _ => PVal v end.

Lemma gp_nil : forall f pw acc, gp f pw [] acc = acc.
Proof. destruct f; reflexivity. Qed.

Lemma gp_space : forall f pw s acc, gp (S f) pw (32 :: s) acc = gp f false s acc.
Proof. reflexivity. Qed.

(* the value ends where r begins; after an empty value the "=" is looked at once more and skipped *)
Lemma gp_kv : forall f c k v r acc,
  is_alnum c = true -> forallb is_kwchar (c :: k) = true ->
  forallb is_valchar v = true -> stops is_valchar r -> (v = [] -> r = []) ->
  gp (S f) false ((c :: k) ++ 61 :: v ++ r) acc
  = gp f (is_word (last_or 0 v)) r (p_set (upper (c :: k)) (pval_of v) acc).
Proof.
  intros f c k v r acc Hc Hk Hval Hr Hv. cbn [gp app]. rewrite Hc. cbn [negb andb].
  change (c :: k ++ 61 :: v ++ r) with ((c :: k) ++ 61 :: v ++ r).
  rewrite (span_app is_kwchar (c :: k) (61 :: v ++ r) Hk) by reflexivity.
  cbn iota beta. change (61 =? 61) with true. cbn iota.
  rewrite (span_app is_valchar v r Hval Hr). destruct v as [|v0 v']; [|reflexivity].
  rewrite (Hv eq_refl), gp_nil. destruct f as [|f]; [reflexivity|].
  cbn [gp app]. change (is_alnum 61) with false. cbn [andb]. apply gp_nil.
Qed.

Lemma span_length : forall p s a r, span p s = (a, r) -> length s = (length a + length r)%nat.
Proof.
  induction s as [|c s IH]; intros a r H; cbn [span] in H.
  - injection H as <- <-. reflexivity.
  - destruct (p c); [|injection H as <- <-; reflexivity].
    destruct (span p s) as [a0 r0]. injection H as <- <-. cbn [length]. rewrite (IH a0 r0 eq_refl). reflexivity.
Qed.

Lemma gp_fuel : forall f1 f2 pw s acc, (length s < f1)%nat -> (length s < f2)%nat ->
  gp f1 pw s acc = gp f2 pw s acc.
Proof.
  induction f1 as [|f1 IH]; intros f2 pw s acc H1 H2; [lia|].
  destruct f2 as [|f2]; [lia|]. cbn [gp].
  destruct s as [|c s']; [reflexivity|]. cbn [length] in H1, H2.
  destruct (is_alnum c && negb pw) eqn:Ec; [|apply IH; lia].
  destruct (span is_kwchar (c :: s')) as [kw r1] eqn:Es.
  pose proof (span_length _ _ _ _ Es) as L1. cbn [length] in L1.
  assert (Hkw : (1 <= length kw)%nat).
  { apply andb_true_iff in Ec as [Ea _]. cbn [span] in Es. unfold is_kwchar in Es. rewrite Ea in Es.
    cbn [orb] in Es. destruct (span _ s'). injection Es as <- _. cbn [length]. lia. }
  clear Ec Es.
  destruct r1 as [|eq r2]; [reflexivity|]. cbn [length] in L1.
  destruct (eq =? 61); [|apply IH; cbn [length]; lia].
  destruct (span is_valchar r2) as [v r3] eqn:Ev. pose proof (span_length _ _ _ _ Ev) as L2.
  destruct v as [|v0 v']; apply IH; cbn [length] in *; lia.
Qed.

Lemma dec_loop_spec : forall fuel n acc, exists p,
  dec_loop fuel n acc = p ++ acc /\ forallb is_digit p = true /\ (fuel <> O -> p <> []) /\
  (n < 2 ^ N.of_nat fuel -> forall a, dec_val_acc a p = a * 10 ^ N.of_nat (length p) + n).
Proof.
  induction fuel as [|f IH]; intros n acc.
  { exists []. repeat split; [contradiction|]. cbn. lia. }
  cbn [dec_loop]. assert (Hd : is_digit (48 + n mod 10) = true) by (unfold is_digit; lia).
  destruct (N.ltb_spec n 10) as [Hn|Hn].
  - exists [48 + n mod 10]. cbn [forallb]. rewrite Hd. repeat split; [discriminate|]. intros _ a.
    cbn [dec_val_acc length]. change (N.of_nat 1) with 1. rewrite N.pow_1_r. lia.
  - destruct (IH (n / 10) ((48 + n mod 10) :: acc)) as (p & E & Hp & _ & Hv).
    exists (p ++ [48 + n mod 10]). rewrite E, <- app_assoc, forallb_app, Hp. cbn [forallb]. rewrite Hd.
    repeat split; [destruct p; discriminate|]. intros H a.
    rewrite Nat2N.inj_succ, N.pow_succ_r' in H. rewrite dec_val_acc_app, Hv by lia. cbn [dec_val_acc].
    rewrite app_length, Nat.add_1_r, Nat2N.inj_succ, N.pow_succ_r'.
    set (X := 10 ^ N.of_nat (length p)). lia.
Qed.

Lemma dec_of_N_digits : forall n, dec_of_N n <> [] /\ forallb is_digit (dec_of_N n) = true.
Proof.
  intro n. unfold dec_of_N. destruct (dec_loop_spec (S (N.to_nat (N.size n))) n []) as (p & E & Hp & Hne & _).
  rewrite E, app_nil_r. split; [apply Hne; discriminate|exact Hp].
Qed.

Lemma dec_val_of_N : forall n, dec_val (dec_of_N n) = n.
Proof.
  intro n. unfold dec_of_N, dec_val. destruct (dec_loop_spec (S (N.to_nat (N.size n))) n []) as (p & E & _ & _ & Hv).
  rewrite E, app_nil_r, Hv; [lia|]. rewrite Nat2N.inj_succ, N2Nat.id, N.pow_succ_r'. pose proof (N.size_gt n). lia.
Qed.

Lemma digit_valchar : forall c, is_digit c = true -> is_valchar c = true.
Proof. intros c H. unfold is_digit in H. unfold is_valchar. lia. Qed.
Lemma valchar_nonws : forall c, is_valchar c = true -> nonws c = true.
Proof. intros c H. unfold is_valchar in H. unfold nonws, is_ws. lia. Qed.
Lemma valchar_ge32 : forall c, is_valchar c = true -> 32 <= c.
Proof. intros c H. unfold is_valchar in H. lia. Qed.
Lemma kwchar_ge32 : forall c, is_kwchar c = true -> 32 <= c.
Proof. intros c H. unfold is_kwchar, is_alnum, is_alpha, is_upper, is_lower, is_digit in H. lia. Qed.

Lemma hexd_valchar : forall d, d < 16 -> is_valchar (hexd d) = true.
Proof. intros d H. unfold hexd, is_valchar. destruct (d <? 10) eqn:E; lia. Qed.

Lemma xtext_valchar : forall x, Forall is_byte x -> forallb is_valchar (xtext x) = true.
Proof.
  induction 1 as [|b x Hb Hx IH]; [reflexivity|]. unfold xtext in *. cbn [flat_map]. rewrite forallb_app, IH, andb_true_r.
  unfold xtext1. unfold is_byte in Hb. destruct (xtext_plain b) eqn:E; cbn [forallb].
  - unfold xtext_plain in E. unfold is_valchar. lia.
  - rewrite !hexd_valchar by lia. reflexivity.
Qed.

Lemma encode_bytes : forall u t x, encode u t = Some x -> Forall is_byte x.
Proof.
  intros u t x H. unfold encode in H. destruct u.
  - destruct (forallb valid_cp t) eqn:E; [|discriminate]. injection H as <-. exact (valid_enc_bytes t E).
  - destruct (is_ascii_text t) eqn:E; [|discriminate]. injection H as <-.
    revert E. apply forallb_Forall. unfold is_byte. lia.
Qed.

(* the parameters the server ends up with *)
Definition size_params (e : exts) (size : option N) : params :=
  match size with
  | Some n => if ext_mem X_SIZE e then [(X_SIZE, PVal (dec_of_N n))] else []
  | None => []
  end.
Definition auth_value (x : bytes) : pval := match xtext x with [] => PTrue | _ :: _ => PVal (xtext x) end.
Definition auth_params (e : exts) (auth : option (option text)) : params :=
  match auth with
  | Some au =>
      if ext_mem X_AUTH e then
        match au with
        | None => [(X_AUTH, PVal [60; 62])]
        | Some t => match encode (ext_mem X_SMTPUTF8 e) t with
                    | Some x => [(X_AUTH, auth_value x)]
                    | None => []
                    end
        end
      else []
  | None => []
  end.
Definition mail_params (e : exts) (size : option N) (auth : option (option text)) : params :=
  size_params e size ++ auth_params e auth.
Definition auth_ok (e : exts) (auth : option (option text)) : Prop :=
  match auth with
  | Some (Some t) => ext_mem X_AUTH e = true -> encode (ext_mem X_SMTPUTF8 e) t <> None
  | _ => True
  end.

Lemma auth_part_spec : forall e auth, auth_ok e auth ->
  (auth_part e auth = Some [] /\ auth_params e auth = []) \/
  exists v, forallb is_valchar v = true /\
    auth_part e auth = Some (piece X_AUTH v) /\ auth_params e auth = [(X_AUTH, pval_of v)].
Proof.
  intros e [[t|]|] H; cbn [auth_part auth_params auth_ok] in *; [| |left; split; reflexivity];
    (destruct (ext_mem X_AUTH e); [right|left; split; reflexivity]).
  - destruct (encode (ext_mem X_SMTPUTF8 e) t) as [x|] eqn:Ex; [|destruct (H eq_refl eq_refl)].
    exists (xtext x). split; [exact (xtext_valchar x (encode_bytes _ _ _ Ex))|split; reflexivity].
  - exists [60; 62]. repeat split.
Qed.

(* facts about a tail made of such pieces: bytes >= 32, the last byte is no white
   space (after one that is none), and what _gather_params makes of it *)
Record tail_facts (tl : bytes) (acc ps : params) : Prop := {
  tf_ge32 : Forall (fun b => 32 <= b) tl;
  tf_ends : forall d, nonws d = true -> nonws (last_or d tl) = true;
  tf_params : forall pw, gp (S (length tl)) pw tl acc = ps
}.

Lemma tail_nil : forall acc, tail_facts [] acc acc.
Proof. intro acc. constructor; [constructor|auto|reflexivity]. Qed.

Lemma tail_piece : forall kc kr v tl acc ps,
  is_alnum kc = true -> forallb is_kwchar (kc :: kr) = true -> forallb is_valchar v = true ->
  stops is_valchar tl -> (v = [] -> tl = []) ->
  tail_facts tl (p_set (upper (kc :: kr)) (pval_of v) acc) ps ->
  tail_facts (piece (kc :: kr) v ++ tl) acc ps.
Proof.
  intros kc kr v tl acc ps Hc Hk Hv Htl Hvt [T1 T2 T3]. unfold piece. constructor.
  - apply Forall_app. split; [|exact T1]. constructor; [lia|]. apply Forall_app. split.
    + exact (forallb_Forall _ _ _ kwchar_ge32 Hk).
    + constructor; [lia|exact (forallb_Forall _ _ _ valchar_ge32 Hv)].
  - intros d _. change (32 :: (kc :: kr) ++ 61 :: v) with ((32 :: kc :: kr) ++ 61 :: v).
    rewrite <- app_assoc, !last_or_app2. cbn [app last_or].
    apply T2, last_or_forallb; [reflexivity|exact (forallb_impl _ _ _ valchar_nonws Hv)].
  - intro pw. cbn [app length]. rewrite gp_space, <- app_assoc.
    change (kc :: kr ++ (61 :: v) ++ tl) with ((kc :: kr) ++ 61 :: v ++ tl). rewrite gp_kv by assumption.
    rewrite (gp_fuel _ (S (length tl))); [apply T3| |]; rewrite ?app_length; cbn [length]; rewrite ?app_length; lia.
Qed.

Lemma auth_tail : forall e auth ap acc, auth_ok e auth -> auth_part e auth = Some ap ->
  (forall v, p_set X_AUTH v acc = acc ++ [(X_AUTH, v)]) ->
  tail_facts ap acc (acc ++ auth_params e auth) /\ stops is_valchar ap.
Proof.
  intros e auth ap acc Hok Hap Hset.
  destruct (auth_part_spec e auth Hok) as [[E ->]|(v & Hv & E & ->)]; rewrite E in Hap; injection Hap as <-.
  - rewrite app_nil_r. split; [apply tail_nil|exact I].
  - split; [|reflexivity]. rewrite <- (app_nil_r (piece X_AUTH v)).
    apply tail_piece; [reflexivity|reflexivity|exact Hv|exact I|reflexivity|].
    change (upper [65; 85; 84; 72]) with X_AUTH. rewrite Hset. apply tail_nil.
Qed.

Lemma mail_tail : forall e size auth ap, auth_ok e auth -> auth_part e auth = Some ap ->
  tail_facts (size_part e size ++ ap) [] (mail_params e size auth).
Proof.
  intros e size auth ap Hok Hap. unfold mail_params, size_part, size_params.
  destruct (auth_tail e auth ap [] Hok Hap) as [H0 _]; [reflexivity|].
  destruct size as [n|]; [|exact H0]. destruct (ext_mem X_SIZE e); [|exact H0].
  destruct (dec_of_N_digits n) as [Dne Dd].
  destruct (auth_tail e auth ap [(X_SIZE, PVal (dec_of_N n))] Hok Hap) as [T Hst]; [reflexivity|].
  apply (tail_piece 83 [73; 90; 69]); try reflexivity; try assumption.
  - exact (forallb_impl _ _ _ digit_valchar Dd).
  - intro E. contradiction.
  - change (upper [83; 73; 90; 69]) with X_SIZE. destruct (dec_of_N n); [contradiction|exact T].
Qed.

(* the generic step: a command "NAME SP prefix< addr > tail" through the server *)
Lemma path_line : forall (name : bytes) p0 pr (m : bytes -> option bytes) a bs tl ps t,
  name <> [] -> forallb is_alpha name = true -> nonws p0 = true ->
  Forall (fun b => 32 <= b) (p0 :: pr) ->
  (forall x, m ((p0 :: pr) ++ x) = Some x) ->
  wire_ok a bs -> tail_facts tl [] ps ->
  let arg := (p0 :: pr) ++ bs ++ [62] ++ tl in
  server_line (send_command (name ++ 32 :: arg) ++ t)
    = (if beqb (upper name) C_MAIL then LMail (parse_mail arg) t
       else if beqb (upper name) C_RCPT then LRcpt (parse_rcpt arg) t else LOther (upper name) (Some arg))
  /\ parse_path m arg = AOk a ps.
Proof.
  intros name p0 pr m a bs tl ps t Hne Ha Hp0 Hp32 Hm (Hdec & Hb & Hq) [T1 T2 T3] arg. split.
  - apply (server_line_cmd _ (name ++ 32 :: arg)).
    + apply recv_line_sent, ge32_nolf, Forall_app. split.
      * revert Ha. apply forallb_Forall. unfold is_alpha, is_upper, is_lower. lia.
      * constructor; [lia|]. unfold arg. rewrite !Forall_app. repeat split; try assumption. repeat constructor. lia.
    + apply parse_command_arg; try assumption; [exact (proj1 (negb_true_iff _) Hp0)|].
      rewrite !last_or_app2. apply negb_true_iff, T2. reflexivity.
  - unfold parse_path, arg. rewrite Hm. cbn [app]. rewrite (find_gt_end bs _ _ tl Hq), Hdec. unfold gather_params.
    rewrite (T3 false). reflexivity.
Qed.

Theorem mail_roundtrip : forall e a size auth,
  wf_sender (ext_mem X_SMTPUTF8 e) a = true -> auth_ok e auth ->
  exists line, build_mail e a size auth = Some line /\
    forall t, server_line (send_command line ++ t) = LMail (AOk a (mail_params e size auth)) t.
Proof.
  intros e a size auth Hwf Hau.
  destruct (encode_sender _ a Hwf) as (bs & Hen & Hw).
  assert (Hap : exists ap, auth_part e auth = Some ap)
    by (destruct (auth_part_spec e auth Hau) as [[E _]|(v & _ & E & _)]; eauto).
  destruct Hap as [ap Hap]. unfold build_mail. rewrite Hen, Hap. eexists. split; [reflexivity|]. intro t.
  destruct (path_line C_MAIL 70 [82; 79; 77; 58; 60] match_from a bs _ _ t
              ltac:(discriminate) eq_refl eq_refl ltac:(repeat constructor; lia) (fun x => eq_refl) Hw
              (mail_tail e size auth ap Hau Hap)) as [L P].
  unfold parse_mail in L. rewrite P in L. exact L.
Qed.

Theorem rcpt_roundtrip : forall e a,
  wf_mailbox (ext_mem X_SMTPUTF8 e) a = true ->
  exists line, build_rcpt e a = Some line /\
    forall t, server_line (send_command line ++ t) = LRcpt (AOk a []) t.
Proof.
  intros e a Hwf. destruct (encode_mailbox _ a Hwf) as (bs & Hen & Hw).
  unfold build_rcpt. rewrite Hen. eexists. split; [reflexivity|]. intro t.
  destruct (path_line C_RCPT 84 [79; 58; 60] match_to a bs [] [] t
              ltac:(discriminate) eq_refl eq_refl ltac:(repeat constructor; lia) (fun x => eq_refl) Hw
              (tail_nil [])) as [L P].
  cbn zeta in L, P. rewrite !app_nil_r in L, P. unfold parse_rcpt in L. rewrite P in L. exact L.
Qed.

(* what the repair of D16 is needed for: the unrepaired scanner cuts a valid
   mailbox at the first greater-than sign that follows a quoted pair;
   the witness is the mailbox  DQUOTE a BACKSLASH DQUOTE b GT c DQUOTE @ x *)
Definition d16_witness : text := [34; 97; 92; 34; 98; 62; 99; 34; 64; 120].
Definition d16_arg : bytes := FROM_LT ++ d16_witness ++ [62].

Definition b64t (t : text) : text := b64enc (utf8_enc t).

Lemma b64c_not_space : forall c, b64c c = true -> uspace c = false.
Proof.
  intros c H. apply (rdisj_sound [(43, 43); (47, 57); (61, 61); (65, 90); (97, 122)] uspace_ranges); [vm_compute; reflexivity|].
  unfold b64c, is_alnum, is_alpha, is_upper, is_lower, is_digit in H. cbn [in_ranges]. lia.
Qed.
Lemma b64c_not_sep : forall c, b64c c = true -> is_sepc c = false.
Proof. intros c H. unfold b64c, is_alnum, is_alpha, is_upper, is_lower, is_digit in H. unfold is_sepc. lia. Qed.

Lemma r_b64encode_ok : forall t, forallb valid_cp t = true -> r_b64encode t = Some (b64t t).
Proof. intros t H. unfold r_b64encode. rewrite H. reflexivity. Qed.

Lemma w_b64decode_ok : forall t, forallb valid_cp t = true -> w_b64decode (b64t t) = DOk t.
Proof.
  intros t H. unfold w_b64decode, b64t.
  rewrite (forallb_impl _ _ _ b64c_ascii (b64enc_chars _) : is_ascii_text _ = true).
  rewrite (b64_roundtrip _ (valid_enc_bytes t H)), Reply_lemmas.utf8_dec_enc by (revert H; apply forallb_Forall; auto).
  reflexivity.
Qed.

(* a merge separator the edge's split pattern  \s*[,;]\s*  matches as a whole *)
Definition sep_ok (sep : text) : Prop :=
  exists w1 s w2, sep = w1 ++ s :: w2 /\ forallb uspace w1 = true /\ is_sepc s = true /\ forallb uspace w2 = true.

Lemma sepc_not_space : forall s, is_sepc s = true -> uspace s = false.
Proof.
  intros s H. apply (rdisj_sound [(44, 44); (59, 59)] uspace_ranges); [vm_compute; reflexivity|].
  unfold is_sepc in H. cbn [in_ranges]. lia.
Qed.

Lemma try_sep_b64 : forall c s, b64c c = true -> try_sep (c :: s) = None.
Proof.
  intros c s H. unfold try_sep. rewrite drop_while_stop by (apply b64c_not_space, H).
  rewrite (b64c_not_sep c H). reflexivity.
Qed.

Lemma try_sep_sep : forall sep rest, sep_ok sep -> stops uspace rest -> try_sep (sep ++ rest) = Some rest.
Proof.
  intros sep rest (w1 & s & w2 & -> & H1 & Hs & H2) St. unfold try_sep.
  rewrite <- app_assoc, drop_while_all by exact H1. cbn [app].
  rewrite drop_while_stop by (apply sepc_not_space, Hs). rewrite Hs.
  rewrite drop_while_all by exact H2. destruct rest as [|c r]; [reflexivity|].
  rewrite drop_while_stop by exact St. reflexivity.
Qed.

Lemma split_first_piece : forall x sep rest, forallb b64c x = true -> sep_ok sep -> stops uspace rest ->
  split_first (x ++ sep ++ rest) = (x, Some rest).
Proof.
  induction x as [|c x IH]; intros sep rest Hx Hs St.
  - cbn [app]. destruct (sep ++ rest) as [|c0 r0] eqn:E.
    + destruct Hs as (w1 & s & w2 & -> & _). destruct w1; discriminate.
    + cbn [split_first]. rewrite <- E, (try_sep_sep sep rest Hs St). reflexivity.
  - apply andb_true_iff in Hx as [Hc Hx].
    cbn [app split_first]. rewrite (try_sep_b64 c _ Hc), (IH sep rest Hx Hs St). reflexivity.
Qed.

Lemma split_first_last : forall x, forallb b64c x = true -> split_first x = (x, None).
Proof.
  induction x as [|c x IH]; intro Hx; [reflexivity|]. apply andb_true_iff in Hx as [Hc Hx].
  cbn [split_first]. rewrite (try_sep_b64 c _ Hc), (IH Hx). reflexivity.
Qed.

Definition b64piece (x : text) : Prop := x <> [] /\ forallb b64c x = true.

Lemma re_split_join : forall sep, sep_ok sep -> forall xs x, Forall b64piece (x :: xs) ->
  (length (x :: xs) <= length (join sep (x :: xs)))%nat /\
  forall f, (length (x :: xs) <= f)%nat -> re_split f (join sep (x :: xs)) = x :: xs.
Proof.
  intros sep Hs. induction xs as [|y xs IH]; intros x F; inversion_clear F as [|? ? [Hne Hx] F'].
  - cbn [join]. split; [destruct x; [contradiction|cbn; lia]|].
    intros f L. destruct f as [|f]; [cbn in L; lia|]. cbn [re_split]. rewrite (split_first_last x Hx). reflexivity.
  - change (join sep (x :: y :: xs)) with (x ++ sep ++ join sep (y :: xs)).
    destruct (IH y F') as [Ln Hr]. split.
    + rewrite !app_length. destruct x; [contradiction|]. cbn [length] in *. lia.
    + intros f L. destruct f as [|f]; [cbn in L; lia|]. cbn [re_split].
      rewrite split_first_piece, Hr; [reflexivity|cbn [length] in *; lia|exact Hx|exact Hs|].
      inversion_clear F' as [|? ? [Hy Hyc] _]. destruct y as [|y0 y]; [contradiction|].
      apply andb_true_iff in Hyc as [Hy0 _]. destruct xs; cbn; apply b64c_not_space, Hy0.
Qed.

Lemma decode_all_ok : forall rs, Forall (fun r => forallb valid_cp r = true) rs ->
  decode_all (map b64t rs) = RcOk rs.
Proof.
  induction 1 as [|r rs Hr Hrs IH]; [reflexivity|]. cbn [map decode_all].
  rewrite (w_b64decode_ok r Hr), IH. reflexivity.
Qed.

Lemma omap_b64 : forall rs, Forall (fun r => forallb valid_cp r = true) rs ->
  omap r_b64encode rs = Some (map b64t rs).
Proof.
  induction 1 as [|r rs Hr Hrs IH]; [reflexivity|]. cbn [omap map]. rewrite (r_b64encode_ok r Hr), IH. reflexivity.
Qed.

Lemma environ_get_spec : forall sep key (pre : list (text * text)) k vs,
  environ_get sep (pre ++ map (fun r => (k, r)) vs) key =
  match filter (fun h => beqb (cgi_name (fst h)) key) pre
        ++ (if beqb (cgi_name k) key then map (fun r => (k, r)) vs else []) with
  | [] => None
  | l => Some (join sep (map snd l))
  end.
Proof.
  intros. unfold environ_get. rewrite filter_app.
  rewrite (filter_pairs (fun n => beqb (cgi_name n) key)). reflexivity.
Qed.

(* valid text that is not empty: what a recipient is at least *)
Definition rcpt_text (r : text) : Prop := r <> [] /\ forallb valid_cp r = true.

Lemma b64t_piece : forall r, rcpt_text r -> b64piece (b64t r).
Proof.
  intros [|c r] [Hne Hv]; [contradiction|]. split; [|apply b64enc_chars]. apply b64enc_nonempty.
  rewrite Reply_lemmas.utf8_enc_cons. destruct (Reply_lemmas.enc1_shape c) as [[_ ->]|(b & x & -> & _)]; discriminate.
Qed.

Theorem http_envelope_roundtrip : forall sep ehlo sender rcpts h b,
  sep_ok sep -> forallb valid_cp sender = true -> rcpts <> [] -> Forall rcpt_text rcpts ->
  exists hs, build_headers ehlo sender rcpts h b = Some hs /\
             http_addresses sep hs = (DOk sender, RcOk rcpts).
Proof.
  intros sep ehlo sender rcpts h b Hs Hv Hne F.
  assert (Fv : Forall (fun r => forallb valid_cp r = true) rcpts) by (revert F; apply Forall_impl; intros r [_ H]; exact H).
  unfold build_headers. rewrite (r_b64encode_ok sender Hv), (omap_b64 rcpts Fv).
  eexists. split; [reflexivity|]. unfold http_addresses.
  set (pre := [(H_CLEN, dec_of_N (N.of_nat (length h + length b))); (H_CTYPE, V_RFC822); (H_EHLO, ehlo); (H_SENDER, b64t sender)]).
  rewrite !(environ_get_spec sep _ pre H_RCPT (map b64t rcpts)). f_equal; [exact (w_b64decode_ok sender Hv)|].
  destruct rcpts as [|r rs]; [contradiction|].
  change (get_recipients (Some (join sep (map snd (map (fun x => (H_RCPT, x)) (map b64t (r :: rs)))))) = RcOk (r :: rs)).
  rewrite map_snd_pair. cbn [map].
  destruct (re_split_join sep Hs (map b64t rs) (b64t r)) as [Ln Hr].
  { change (Forall b64piece (map b64t (r :: rs))). apply Forall_map. revert F. apply Forall_impl, b64t_piece. }
  unfold get_recipients. destruct (join sep (b64t r :: map b64t rs)) as [|j0 js] eqn:Ej; [cbn in Ln; lia|].
  rewrite Hr by lia. exact (decode_all_ok _ Fv).
Qed.

Definition code3 (code : text) : Prop :=
  exists d1 d2 d3, code = [d1; d2; d3] /\ 49 <= d1 <= 53 /\ is_digit d2 = true /\ is_digit d3 = true.

Theorem reply_header_code : forall code msg, code3 code ->
  parse_reply_header (build_reply_header code msg) = RHCode code.
Proof.
  intros code msg (d1 & d2 & d3 & -> & H1 & H2 & H3).
  assert (U1 : udigit d1 = true) by (apply digit_udigit; unfold is_digit; lia).
  unfold parse_reply_header, build_reply_header. cbn [app].
  rewrite drop_while_stop by (apply digit_space_disjoint, U1).
  rewrite U1, (digit_udigit d2 H2), (digit_udigit d3 H3). cbn [andb]. rewrite drop_while_stop by exact (sepc_not_space 59 eq_refl).
  change (59 =? 59) with true. cbn iota.
  replace ((49 <=? d1) && (d1 <=? 53)) with true by lia. reflexivity.
Qed.

(* the class of a three-digit code decides what the relay reports *)
Definition report_of (code : text) : relay_report :=
  if starts_with [50] code then RepOk (Some code)
  else if starts_with [53] code then RepPermanent (Some code)
  else RepTransient (Some code).

Theorem http_code_reported : forall code msg, code3 code ->
  process_response (http_status code) (build_reply_header code msg) = report_of code.
Proof.
  intros code msg Hc. unfold process_response. rewrite (reply_header_code code msg Hc).
  destruct Hc as (d1 & d2 & d3 & -> & H1 & _).
  unfold http_status, report_of. cbn [starts_with].
  destruct (N.eqb_spec 50 d1) as [E50|E50]; cbn [andb]; [reflexivity|].
  destruct (N.eqb_spec 52 d1) as [<-|E52]; cbn [andb]; [reflexivity|].
  destruct (N.eqb_spec 53 d1) as [E53|E53]; cbn [andb].
  - destruct (beqb [d1; d2; d3] [53; 51; 53]); reflexivity.
  - cbn [beqb]. destruct (N.eqb_spec d1 53); [congruence|reflexivity].
Qed.

Definition report_code (r : relay_report) : option text :=
  match r with
  | RepOk c | RepPermanent c | RepTransient c => c
  | RepValueError => None
  end.
Definition report_is_success (r : relay_report) : bool := match r with RepOk _ => true | _ => false end.

Lemma wf_sender_valid : forall u a, wf_sender u a = true -> forallb valid_cp a = true.
Proof.
  intros u [|c s] H; [reflexivity|]. destruct (wf_mailbox_scan u _ H) as [Hok _].
  exact (forallb_impl _ _ _ (okc_valid u) Hok).
Qed.

Lemma rcpt_lines_ok : forall ce rcpts,
  Forall (fun r => wf_mailbox (ext_mem X_SMTPUTF8 ce) r = true) rcpts ->
  rcpt_lines ce rcpts = Some rcpts /\ exists l, omap (build_rcpt ce) rcpts = Some l.
Proof.
  intros ce rcpts. induction 1 as [|r rs Hr Hrs [IH1 [l IH2]]]; [split; [reflexivity|exists []; reflexivity]|].
  destruct (rcpt_roundtrip ce r Hr) as (line & Hb & Hl). cbn [rcpt_lines omap]. rewrite Hb.
  specialize (Hl []). rewrite app_nil_r in Hl. rewrite Hl, IH1, IH2. split; [reflexivity|eexists; reflexivity].
Qed.

Lemma gen_fields_last2 : forall fs B,
  Data.ends_crlf (Envelope.gen_fields fs ++ B) = true \/ Data.ends_crlf (Envelope.gen_fields fs ++ B) = false.
Proof. intros. destruct (Data.ends_crlf _); auto. Qed.

Lemma dot_parts_two : forall G B, (exists s, G = s ++ [10]) -> Data.dot_parts_at_bol [G; B].
Proof.
  intros G B [s ->] [|x [|y pre]] p post E; [left; reflexivity| |destruct pre; discriminate].
  injection E as <- _. right. exists s. cbn. rewrite app_nil_r. reflexivity.
Qed.

Section HopFacts.
  Variable hdr : Type.
  Variable hparse : bytes -> hdr * option bytes.
  Variable hgen : hdr -> bytes.
  Hypothesis Hcodec : Envelope.codec_ok hparse hgen.

  (* what the edge is given for the body B: B itself if the message ends with
     CRLF, else B followed by CRLF (C05) *)
  Definition body_received (fs : list Envelope.field) (B : bytes) : bytes :=
    if Data.ends_crlf (Envelope.gen_fields fs ++ B) then B else B ++ CRLF.

  Lemma expected_gen : forall fs B,
    Data.expected (Envelope.gen_fields fs ++ B) = Envelope.gen_fields fs ++ body_received fs B.
  Proof.
    intros fs B. unfold Data.expected, body_received.
    destruct (Envelope.gen_fields fs ++ B) as [|x m] eqn:E.
    - exfalso. unfold Envelope.gen_fields in E. destruct (Envelope.render _); discriminate.
    - rewrite <- E. destruct (Data.ends_crlf (Envelope.gen_fields fs ++ B)); [reflexivity|].
      rewrite <- app_assoc. reflexivity.
  Qed.

  (* SMTP / LMTP, for any envelope whose header block generates as a well-formed block fs does *)
  Theorem smtp_hop_delivers : forall ce (e : Envelope.envelope hdr) fs B sender rcpts t buf chunks,
    Envelope.wf_block fs = true ->
    Envelope.e_sender e = sender -> Envelope.e_rcpts e = rcpts ->
    Envelope.flatten hdr hgen e = (Envelope.gen_fields fs, B) ->
    wf_sender (ext_mem X_SMTPUTF8 ce) sender = true ->
    Forall (fun r => wf_mailbox (ext_mem X_SMTPUTF8 ce) r = true) rcpts ->
    (ext_mem X_8BITMIME ce = false -> Envelope.has_8bit B = false) ->
    Forall (fun c => c <> []) chunks ->
    buf ++ concat chunks = data_wire hdr hgen e ++ t ->
    exists e', smtp_hop hdr hparse ce e buf chunks = Delivered e' /\
      Envelope.e_sender e' = sender /\ Envelope.e_rcpts e' = rcpts /\
      Envelope.flatten hdr hgen e' = (Envelope.gen_fields fs, body_received fs B) /\
      Envelope.join (Envelope.flatten hdr hgen e') = Data.expected (Envelope.join (Envelope.flatten hdr hgen e)).
  Proof.
    intros ce e fs B sender rcpts t buf chunks Hwf <- <- Hflat Hs Hr H8 Hch Hwire. unfold smtp_hop.
    (* _handle_encoding *)
    replace (negb (ext_mem X_8BITMIME ce) && negb (forallb Envelope.is_ascii (Envelope.e_message e))) with false.
    2:{ rewrite (f_equal snd Hflat : Envelope.e_message e = B), Envelope_lemmas.ascii_8bit.
        destruct (ext_mem X_8BITMIME ce); [reflexivity|]. rewrite (H8 eq_refl). reflexivity. }
    destruct (mail_roundtrip ce _ None (Some None) Hs I) as (mc & Hm & Hl).
    specialize (Hl []). rewrite app_nil_r in Hl. rewrite Hm, Hl.
    destruct (rcpt_lines_ok ce _ Hr) as [R1 [l R2]]. rewrite R2, R1.
    unfold data_wire in Hwire. rewrite Hflat in Hwire.
    assert (Hd : Data.dot_parts_at_bol [Envelope.gen_fields fs; B]).
    { apply dot_parts_two. exists (Envelope.render (Envelope.hnorm_fields fs) ++ [13]).
      unfold Envelope.gen_fields, CRLF. rewrite <- app_assoc. reflexivity. }
    destruct (Data_lemmas.roundtrip [Envelope.gen_fields fs; B] t buf chunks Hd Hch Hwire) as (rb & rest & Hrecv & _).
    rewrite Hrecv. cbn [concat]. rewrite app_nil_r, expected_gen.
    destruct (Envelope_lemmas.parse_gen hdr hparse hgen Hcodec fs (body_received fs B) (Envelope.e_sender e) (Envelope.e_rcpts e) Hwf)
      as (Q1 & Q2 & Q3).
    eexists. split; [reflexivity|]. repeat split; [exact Q1|exact Q2|exact Q3|].
    rewrite Q3, Hflat. symmetry. apply expected_gen.
  Qed.

  Theorem http_hop_delivers : forall sep ehlo (e : Envelope.envelope hdr) fs B sender rcpts,
    Envelope.wf_block fs = true ->
    Envelope.e_sender e = sender -> Envelope.e_rcpts e = rcpts ->
    Envelope.flatten hdr hgen e = (Envelope.gen_fields fs, B) ->
    sep_ok sep -> forallb valid_cp sender = true -> rcpts <> [] -> Forall rcpt_text rcpts ->
    exists e', http_hop hdr hparse hgen sep ehlo e = Delivered e' /\
      Envelope.e_sender e' = sender /\ Envelope.e_rcpts e' = rcpts /\
      Envelope.flatten hdr hgen e' = Envelope.flatten hdr hgen e.
  Proof.
    intros sep ehlo e fs B sender rcpts Hwf <- <- Hflat Hsep Hs Hne Hr. unfold http_hop. rewrite Hflat.
    destruct (http_envelope_roundtrip sep ehlo _ _ (Envelope.gen_fields fs) B Hsep Hs Hne Hr) as (hs & Hb & Ha).
    rewrite Hb, Ha.
    destruct (Envelope_lemmas.parse_gen hdr hparse hgen Hcodec fs B (Envelope.e_sender e) (Envelope.e_rcpts e) Hwf) as (Q1 & Q2 & Q3).
    eexists. repeat split; [exact Q1|exact Q2|exact Q3].
  Qed.
End HopFacts.

Lemma norm_join : forall ls l, Forall nolf (l :: ls) -> norm (join CRLF (l :: ls)) = join CRLF (l :: ls).
Proof.
  induction ls as [|x ls IH]; intros l F; inversion_clear F as [|? ? Hl F'].
  - apply Reply_lemmas.norm_nolf, Hl.
  - change (join CRLF (l :: x :: ls)) with (l ++ CRLF ++ join CRLF (x :: ls)).
    rewrite crlf_snoc, Reply_lemmas.norm_line, strip_cr_snoc, (IH x F') by apply nolf_snoc_cr, Hl.
    rewrite <- app_assoc. reflexivity.
Qed.

Definition exts_text_ok (e : exts) : Prop :=
  Forall (fun kv => Reply_lemmas.valid_text (fst kv) /\
                    match snd kv with Some v => Reply_lemmas.valid_text v | None => True end) e.

Lemma valid_join : forall ls, Forall Reply_lemmas.valid_text ls -> Reply_lemmas.valid_text (join CRLF ls).
Proof.
  induction 1 as [|l ls Hl Hls IH]; [constructor|]. destruct ls as [|l2 ls]; [exact Hl|].
  change (join CRLF (l :: l2 :: ls)) with (l ++ CRLF ++ join CRLF (l2 :: ls)).
  unfold Reply_lemmas.valid_text in *. rewrite !Forall_app. repeat split; [exact Hl| |exact IH]. repeat constructor.
Qed.

Lemma ext_line_valid : forall kv,
  Reply_lemmas.valid_text (fst kv) -> match snd kv with Some v => Reply_lemmas.valid_text v | None => True end ->
  Reply_lemmas.valid_text (ext_line kv).
Proof.
  intros [k v] Hk Hv. rewrite ext_line_eq. cbn [fst snd] in *. unfold Reply_lemmas.valid_text in *.
  apply Forall_app. split; [exact Hk|]. destruct v as [[|c v]|]; [constructor| |constructor].
  constructor; [reflexivity|exact Hv].
Qed.

Theorem client_exts_ok : forall greeting adv t buf chunks,
  header_ok greeting -> Reply_lemmas.valid_text greeting -> wf_exts adv -> exts_text_ok adv ->
  Reply_lemmas.nonempty_chunks chunks ->
  buf ++ concat chunks = ehlo_reply_wire greeting adv ++ t ->
  client_exts false greeting adv buf chunks = Some adv.
Proof.
  intros g adv t buf chunks Hh Hvg Hw Hvt Hch Hwire. unfold client_exts, ehlo_reply_wire in *.
  assert (Hcode : Reply_lemmas.is_code [50; 53; 48]) by (exists 50, 53, 48; repeat split; reflexivity).
  destruct (Reply_lemmas.send_recv_inc [50; 53; 48] _ t buf chunks Hcode Hch Hwire) as (b' & ch' & Hr & _).
  rewrite Hr, Reply_lemmas.norm_enc. unfold build_string.
  rewrite norm_join by (apply build_lines_nolf; assumption). rewrite Reply_lemmas.utf8_dec_enc.
  - exact (f_equal (fun p => Some (snd p)) (ext_roundtrip g adv Hh Hw)).
  - apply valid_join. constructor; [exact Hvg|]. apply Forall_map. revert Hvt. apply Forall_impl.
    intros kv [H1 H2]. apply ext_line_valid; assumption.
Qed.

(* the hypotheses of the theorems are satisfiable *)

Example ext_hyps : header_ok [72; 105] /\
  wf_exts [(X_8BITMIME, None); (X_SIZE, Some [49; 48; 48]); (X_AUTH, Some [80; 76; 65; 73; 78; 32; 76; 79; 71; 73; 78])]
  /\ exts_text_ok [(X_8BITMIME, None); (X_SIZE, Some [49; 48; 48]); (X_AUTH, Some [80; 76; 65; 73; 78; 32; 76; 79; 71; 73; 78])].
Proof.
  split; [split; [discriminate|repeat constructor; discriminate]|]. split.
  - split; [vm_compute; reflexivity|]. repeat constructor; cbn; intuition discriminate.
  - repeat constructor.
Qed.

(* quoted local part with a quoted pair and ">", UTF-8 mailbox, null sender *)
Example addr_hyps :
  wf_mailbox false d16_witness = true /\ wf_sender false [] = true /\
  wf_mailbox true [233; 64; 26085; 26412; 46; 106; 112] = true /\
  wf_mailbox false [97; 64; 91; 49; 57; 50; 46; 48; 46; 50; 46; 49; 93] = true /\
  auth_ok [(X_AUTH, None)] (Some (Some [117; 43; 61; 64; 120])).
Proof. repeat split; try (vm_compute; reflexivity). intros _. vm_compute. discriminate. Qed.

Example sep_hyps : sep_ok [44] /\ sep_ok [32; 59; 9] /\ rcpt_text d16_witness /\ code3 [52; 53; 49].
Proof.
  split; [exists [], 44, []; repeat split; reflexivity|].
  split; [exists [32], 59, [9]; repeat split; reflexivity|].
  split; [split; [discriminate|vm_compute; reflexivity]|].
  exists 52, 53, 49. repeat split; (reflexivity || lia).
Qed.

(* the hop: a two-field header block, an 8-bit body, the class codec of model/Envelope.v *)
Example hop_hyps :
  let fs := [Envelope.mkfield [83] [120] true []; Envelope.mkfield [84; 111] [97; 233] false [([32; 98], true)]] in
  Envelope.codec_ok Envelope.hparse_c Envelope.hgen_c /\
  Envelope.wf_block fs = true /\ Envelope.blank_ok [10] /\
  wf_sender (ext_mem X_SMTPUTF8 [(X_SMTPUTF8, None); (X_8BITMIME, None)]) [233; 64; 120] = true /\
  (ext_mem X_8BITMIME [(X_SMTPUTF8, None); (X_8BITMIME, None)] = false -> Envelope.has_8bit [46; 200; 10] = false).
Proof.
  cbv zeta. split; [exact Envelope_lemmas.codec_c_ok|]. split; [vm_compute; reflexivity|]. split; [left; reflexivity|].
  split; [vm_compute; reflexivity|]. intro H. vm_compute in H. discriminate.
Qed.
