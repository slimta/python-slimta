(* The scheduler loop never sleeps through a due entry (no lost wake-up), the
   timetable stays sorted, and a scheduler iteration dispatches every due entry. *)
From Coq Require Import List NArith Bool.
From SV Require Import model.Queue proof.Queue_base.
Import ListNotations.
Open Scope N_scope.

Fixpoint sorted (q : list (time * id)) : Prop :=
  match q with
  | [] => True
  | e :: q' => (forall x, In x q' -> fst e <= fst x) /\ sorted q'
  end.

Lemma insort_sorted : forall e q, sorted q -> sorted (insort e q).
Proof.
  intros e q. induction q as [|[t k] q IH]; intro H; cbn.
  - split; [intros x []|exact I].
  - destruct H as [H1 H2]. destruct (N.ltb_spec (fst e) t) as [Hlt|Hle]; cbn.
    + split; [|split; assumption]. apply N.lt_le_incl in Hlt.
      intros x [<-|Hx]; [exact Hlt|exact (N.le_trans _ _ _ Hlt (H1 x Hx))].
    + split; [|apply IH; exact H2]. intros x Hx. apply In_insort in Hx. destruct Hx as [->|Hx]; [exact Hle|apply H1; exact Hx].
Qed.

Lemma sorted_app_r : forall d r, sorted (d ++ r) -> sorted r.
Proof. induction d as [|e d IH]; intros r H; [exact H|]. apply IH, H. Qed.

Lemma sorted_none_due : forall now r, sorted r -> match r with [] => True | x :: _ => now < fst x end ->
  forall y, In y r -> now < fst y.
Proof.
  intros now [|x r] Hs Hx y Hy; [destruct Hy|]. destruct Hy as [<-|Hy]; [exact Hx|].
  exact (N.lt_le_trans _ _ _ Hx (proj1 Hs y Hy)).
Qed.

(* a scheduler blocked in wait() has seen the flag clear and will time out no later than
   the first entry is due; one blocked without timeout has seen an empty timetable *)
Definition Winv (s : state) : Prop :=
  sorted (s_queued s) /\
  match s_sched s with
  | SWait d => s_wake s = false /\
               match d with
               | None => s_queued s = []
               | Some t => forall e, In e (s_queued s) -> t <= fst e
               end
  | _ => True
  end.

Lemma Winv_add_queued : forall s ts i, Winv s -> Winv (add_queued s ts i).
Proof.
  intros s ts i [H1 H2]. destruct (add_queuedP s ts i) as [_|_ _]; [split; assumption|].
  split; cbn; [apply insort_sorted; exact H1|]. destruct (s_sched s); exact I.
Qed.

Lemma Winv_wait_ready : forall s, sorted (s_queued s) -> s_sched s = SRun -> Winv (wait_ready s).
Proof.
  intros s Hs Hr. unfold wait_ready. destruct (s_queued s) as [|[t j] q] eqn:Eq.
  - destruct (s_wake s); unfold Winv; cbn; rewrite Eq; cbn; auto.
  - destruct (N.ltb_spec (s_clock s) t) as [Hlt|Hle].
    + destruct (s_wake s); unfold Winv; cbn; rewrite Eq; (split; [exact Hs|]); [exact I|].
      split; [reflexivity|]. intros e [<-|He]; [apply N.le_refl|exact (proj1 Hs e He)].
    + unfold Winv. rewrite Eq, Hr. split; [exact Hs|exact I].
Qed.

(* [Winv] reads the timetable, the scheduler state and the flag only: where an event copies
   them, the invariant of the new state is that of the old one by computation. *)
Lemma step_W : forall s e, Winv s -> Winv (step s e).
Proof.
  intros s e H. destruct e; rewrite ?step_flush; cbn [step].
  - (* EWrite *) exact H.
  - (* EEnqDone *)
    destruct (take_task (is_enq i) (s_tasks s)) as [[[] rest]|]; try exact H.
    proj. destruct (mem i (s_active s)); exact H.
  - (* ERelay *)
    destruct (take_task (is_attempt i) (s_tasks s)) as [[[] rest]|]; try exact H.
    destruct o; [| | | |destruct (pick is_temp rcpts res)]; exact H.
  - (* EStep: the last step of the retry path re-queues *)
    destruct (take_task (is_retry i) (s_tasks s)) as [[t rest]|]; [|exact H].
    destruct (st_get (s_store s) i); [|exact H].
    destruct t as [| |? ? ? ? |? ? [[]|] ?|? ? ? ?| | |]; try exact H.
    + destruct b; exact H.
    + apply Winv_add_queued. exact H.
    + apply Winv_add_queued. exact H.
  - (* EGet *)
    destruct (take_task (is_dequeue i) (s_tasks s)) as [[[] rest]|]; try exact H.
    destruct (st_get (s_store s) i); exact H.
  - (* ERemove *) destruct (take_task (is_rm i) (s_tasks s)) as [[t rest]|]; exact H.
  - (* ETick: the timetable keeps a suffix, _dispatch leaves the scheduler alone *)
    destruct (s_sched s) eqn:Es; try exact H. destruct H as [Hs _].
    destruct (check_ready_cases s) as [d [r [E [_ [_ ->]]]]]. destruct d as [|e d]; [exact (Winv_wait_ready s Hs Es)|].
    apply Winv_wait_ready; proj.
    + rewrite E in Hs. exact (sorted_app_r _ _ Hs).
    + rewrite (dispatch_all_proj s_sched dispatch_sched). exact Es.
  - (* EWakeup *) exact (wakeup_inv Winv s H (conj (proj1 H) I)).
  - (* EAdvance *) exact H.
  - (* EAnnounce *) apply Winv_add_queued. exact H.
  - (* EFlush: the timetable is empty afterwards, and a waiting scheduler is woken *)
    split; proj; [exact I|]. rewrite (dispatch_all_proj s_sched dispatch_sched). proj. destruct (s_sched s); exact I.
Qed.

Lemma init_W : Winv init.
Proof. split; exact I. Qed.

Lemma reach_W : forall es, Winv (run es init).
Proof. intro es. exact (run_inv Winv step_W es init init_W). Qed.

Lemma Winv_due_wakes : forall s ts i, Winv s -> In (ts, i) (s_queued s) -> ts <= s_clock s ->
  match s_sched s with
  | SWait None => False
  | SWait (Some t) => t <= s_clock s       (* EWakeup is enabled *)
  | _ => True
  end.
Proof.
  intros s ts i [_ Hw] Hin Hdue. destruct (s_sched s) as [|[t|]|]; auto; destruct Hw as [_ Hw].
  - exact (N.le_trans _ _ _ (Hw (ts, i) Hin) Hdue).
  - rewrite Hw in Hin. destruct Hin.
Qed.

Lemma wakeup_runs : forall s t, s_sched s = SWait (Some t) -> t <= s_clock s -> s_sched (step s EWakeup) = SRun.
Proof. intros s t E H. cbn [step]. rewrite E, (proj2 (N.leb_le _ _) H). reflexivity. Qed.

Lemma tick_dispatches : forall s ts i, sorted (s_queued s) -> s_sched s = SRun ->
  In (ts, i) (s_queued s) -> ts <= s_clock s ->
  ~ In (ts, i) (s_queued (step s ETick)) /\ mem i (s_active (step s ETick)) = true.
Proof.
  intros s ts i Hs Hr Hin Hdue. cbn [step]. rewrite Hr.
  cut (~ In (ts, i) (s_queued (check_ready s)) /\ mem i (s_active (check_ready s)) = true);
    [destruct (wait_ready_cases (check_ready s)) as [->|[sc ->]]; exact (fun x => x)|].
  destruct (check_ready_cases s) as [d [r [E [_ [Hr0 ->]]]]]. rewrite E in Hs, Hin.
  assert (Hnr : ~ In (ts, i) r).
  { intro Hx. apply (N.lt_irrefl (s_clock s)), (N.lt_le_trans _ ts); [|exact Hdue].
    exact (sorted_none_due _ r (sorted_app_r _ _ Hs) Hr0 _ Hx). }
  assert (Hd : In (ts, i) d) by (apply in_app_iff in Hin; destruct Hin; [assumption|contradiction]).
  destruct d as [|e d]; [destruct Hd|]. proj. split; [exact Hnr|].
  apply dispatch_all_marks. right. exact (in_map snd _ _ Hd).
Qed.
