(* Single flight: at most one delivery attempt of a message is in progress, in every
   reachable state, for every schedule. *)
From Coq Require Import List NArith Bool.
From SV Require Import model.Queue proof.List_lemmas proof.Queue_base.
Import ListNotations.
Open Scope N_scope.

Definition Sinv' (ts : list task) (act : list id) : Prop :=
  NoDup (live_ids ts) /\ forall i, In i (live_ids ts) -> mem i act = true.
Definition Sinv (s : state) : Prop := Sinv' (s_tasks s) (s_active s).

Lemma live_ids_app : forall a b, live_ids (a ++ b) = live_ids a ++ live_ids b.
Proof. intros. apply ids_of_app. Qed.

Lemma live_ids_elt : forall l1 t l2,
  live_ids (l1 ++ t :: l2) = live_ids l1 ++ (if is_live t then [task_id t] else []) ++ live_ids l2.
Proof. intros. unfold live_ids. rewrite ids_of_app, ids_of_cons. reflexivity. Qed.

Lemma S_drop : forall l1 t l2 act, Sinv' (l1 ++ t :: l2) act -> Sinv' (l1 ++ l2) act.
Proof.
  intros l1 t l2 act [Hn Ha]. rewrite live_ids_elt in Hn, Ha. unfold Sinv'. rewrite live_ids_app.
  destruct (is_live t); [|split; assumption]. split; [exact (NoDup_remove_1 _ _ _ Hn)|].
  intros i Hi. apply Ha, In_rest, Hi.
Qed.

Lemma S_live : forall l1 t l2 act, Sinv' (l1 ++ t :: l2) act -> is_live t = true ->
  ~ In (task_id t) (live_ids (l1 ++ l2)) /\ mem (task_id t) act = true.
Proof.
  intros l1 t l2 act [Hn Ha] Hl. rewrite live_ids_elt, Hl in Hn, Ha. rewrite live_ids_app.
  split; [exact (NoDup_remove_2 _ _ _ Hn)|apply Ha, in_elt].
Qed.

Lemma S_add_nonlive : forall ts t act, Sinv' ts act -> is_live t = false -> Sinv' (ts ++ [t]) act.
Proof.
  intros ts t act H Hl. unfold Sinv' in *. rewrite live_ids_app. unfold live_ids at 2 4. rewrite ids_of_cons, Hl, app_nil_r. exact H.
Qed.

Lemma S_add_live : forall ts t act, Sinv' ts act -> is_live t = true -> ~ In (task_id t) (live_ids ts) ->
  mem (task_id t) act = true -> Sinv' (ts ++ [t]) act.
Proof.
  intros ts t act [Hn Ha] Hl Hni Hm. unfold Sinv'. rewrite live_ids_app. unfold live_ids at 2 4. rewrite ids_of_cons, Hl. split.
  - apply NoDup_snoc; assumption.
  - intros i Hi. apply in_app_iff in Hi. destruct Hi as [Hi|[<-|[]]]; [apply Ha; exact Hi|exact Hm].
Qed.

Lemma S_del_active : forall ts act i, Sinv' ts act -> ~ In i (live_ids ts) -> Sinv' ts (del i act).
Proof.
  intros ts act i [Hn Ha] Hni. split; [exact Hn|]. intros j Hj.
  rewrite mem_del_other; [apply Ha; exact Hj|]. intros ->. contradiction.
Qed.

Lemma S_cons_active : forall ts act i, Sinv' ts act -> Sinv' ts (i :: act).
Proof. intros ts act i [Hn Ha]. split; [exact Hn|]. intros j Hj. cbn. rewrite (Ha j Hj). apply orb_true_r. Qed.

Lemma S_swap : forall l1 t l2 t' act, Sinv' (l1 ++ t :: l2) act -> is_live t = true -> is_live t' = true ->
  task_id t' = task_id t -> Sinv' ((l1 ++ l2) ++ [t']) act.
Proof.
  intros l1 t l2 t' act H Hl Hl' E. destruct (S_live _ _ _ _ H Hl) as [Hni Hm].
  apply S_add_live; [exact (S_drop _ _ _ _ H)|exact Hl'|rewrite E; exact Hni|rewrite E; exact Hm].
Qed.

Lemma S_end : forall l1 t l2 act, Sinv' (l1 ++ t :: l2) act -> is_live t = true ->
  Sinv' (l1 ++ l2) (del (task_id t) act).
Proof.
  intros l1 t l2 act H Hl. apply S_del_active; [exact (S_drop _ _ _ _ H)|exact (proj1 (S_live _ _ _ _ H Hl))].
Qed.

Lemma S_start : forall ts act t, Sinv' ts act -> is_live t = true -> mem (task_id t) act = false ->
  Sinv' (ts ++ [t]) (task_id t :: act).
Proof.
  intros ts act t H Hl Hm. apply S_add_live; [apply S_cons_active; exact H|exact Hl| |cbn; rewrite N.eqb_refl; reflexivity].
  intro Hi. rewrite (proj2 H _ Hi) in Hm. discriminate.
Qed.

Lemma dispatch_S : forall s i c, Sinv s -> Sinv (dispatch s i c).
Proof.
  intros s i c H. destruct (dispatchP s i c) as [_|E]; [exact H|exact (S_start _ _ (TDequeue i c) H eq_refl E)].
Qed.

Lemma step_S : forall s e, Sinv s -> Sinv (step s e).
Proof.
  intros s e H. unfold Sinv in *. destruct e; rewrite ?step_flush; cbn [step].
  - (* EWrite *) apply S_add_nonlive; [exact H|reflexivity].
  - (* EEnqDone *)
    destruct (take_taskP (is_enq i) (s_tasks s)) as [|l1 t l2 E1 Hp]; [exact H|]. rewrite E1 in H.
    destruct t; try discriminate Hp. apply N.eqb_eq in Hp. subst i0. apply S_drop in H.
    proj. destruct (mem i (s_active s)) eqn:Em; [exact H|].
    exact (S_start _ _ (TAttempt i snd rcpts 0) H eq_refl Em).
  - (* ERelay *)
    destruct (take_taskP (is_attempt i) (s_tasks s)) as [|l1 t l2 E1 Hp]; [exact H|]. rewrite E1 in H.
    destruct t; try discriminate Hp. apply N.eqb_eq in Hp. subst i0.
    pose proof (S_end _ _ _ _ H eq_refl) as Hend.
    destruct o; [| | | |destruct (pick is_temp rcpts res)]; proj.
    + apply S_add_nonlive; [exact Hend|reflexivity].
    + apply (S_swap _ _ _ _ _ H); reflexivity.
    + apply S_add_nonlive; [exact Hend|reflexivity].
    + apply (S_swap _ _ _ _ _ H); reflexivity.
    + apply S_add_nonlive; [exact (S_drop _ _ _ _ H)|reflexivity].
    + apply (S_swap _ _ _ _ _ H); reflexivity.
  - (* EStep *)
    destruct (take_taskP (is_retry i) (s_tasks s)) as [|l1 t l2 E1 Hp]; [exact H|]. rewrite E1 in H.
    assert (Hl : is_live t = true /\ task_id t = i) by (destruct t; try discriminate Hp; apply N.eqb_eq in Hp; auto).
    destruct Hl as [Hl <-]. pose proof (S_end _ _ _ _ H Hl) as Hend.
    destruct (st_get (s_store s) (task_id t)); [|exact (S_drop _ _ _ _ H)].
    destruct t; try discriminate Hp; cbn [task_id] in *.
    + destruct b; proj; [apply (S_swap _ _ _ _ _ H); reflexivity|apply S_add_nonlive; [exact Hend|reflexivity]].
    + destruct dl as [[all res]|]; [proj; apply (S_swap _ _ _ _ _ H); reflexivity|].
      rewrite aq_tasks, aq_active. exact Hend.
    + rewrite aq_tasks, aq_active. exact Hend.
  - (* EGet *)
    destruct (take_taskP (is_dequeue i) (s_tasks s)) as [|l1 t l2 E1 Hp]; [exact H|]. rewrite E1 in H.
    destruct t; try discriminate Hp. apply N.eqb_eq in Hp. subst i0.
    destruct (st_get (s_store s) i); proj; [apply (S_swap _ _ _ _ _ H); reflexivity|exact (S_end _ _ _ _ H eq_refl)].
  - (* ERemove *)
    destruct (take_taskP (is_rm i) (s_tasks s)) as [|l1 t l2 E1 Hp]; [exact H|]. rewrite E1 in H.
    exact (S_drop _ _ _ _ H).
  - (* ETick *)
    apply (tick_inv Sinv s H); [intros s' sc Hs'; exact Hs'|]. intros d r _ _.
    exact (dispatch_all_pres Sinv _ _ (fun s e _ => dispatch_S s _ _) s H).
  - (* EWakeup *) exact (wakeup_inv Sinv s H H).
  - (* EAdvance *) exact H.
  - (* EAnnounce *) rewrite aq_tasks, aq_active. exact H.
  - (* EFlush *) exact (dispatch_all_pres Sinv _ _ (fun s e _ => dispatch_S s _ _) (set_sched s _ false) H).
Qed.

Lemma init_S : Sinv init.
Proof. split; [constructor|intros i []]. Qed.

Lemma reach_S : forall es, Sinv (run es init).
Proof. intro es. exact (run_inv Sinv step_S es init init_S). Qed.

Definition live_count (i : id) (s : state) : nat := count_occ N.eq_dec (live_ids (s_tasks s)) i.

Lemma Sinv_single : forall s i, Sinv s -> (live_count i s <= 1)%nat.
Proof. intros s i [Hn _]. apply (NoDup_count_occ N.eq_dec), Hn. Qed.

Lemma Sinv_distinct : forall s l1 t1 l2 t2 l3, Sinv s -> s_tasks s = l1 ++ t1 :: l2 ++ t2 :: l3 ->
  is_live t1 = true -> is_live t2 = true -> task_id t1 <> task_id t2.
Proof.
  intros s l1 t1 l2 t2 l3 [Hn _] E L1 L2 Eid. rewrite E, live_ids_elt, L1 in Hn. apply NoDup_remove_2 in Hn.
  apply Hn, in_or_app. right. rewrite live_ids_elt, L2, Eid. apply in_elt.
Qed.
