(* List facts that several proof files need and the standard library of Coq 8.16 lacks. *)
From Coq Require Import List.
Import ListNotations.

Lemma list_ind3 {A} (P : list A -> Prop) :
  P [] -> (forall a, P [a]) -> (forall a b, P [a; b]) ->
  (forall a b c s, P s -> P (a :: b :: c :: s)) -> forall s, P s.
Proof.
  intros H0 H1 H2 H3.
  fix IH 1. intros [|a [|b [|c s]]]; [exact H0|exact (H1 a)|exact (H2 a b)|exact (H3 a b c s (IH s))].
Qed.

Lemma snoc_not_nil {A} (l : list A) a : l ++ [a] <> [].
Proof. intros H. exact (app_cons_not_nil l [] a (eq_sym H)). Qed.

Lemma In_rest {A} (x : A) l1 t l2 : In x (l1 ++ l2) -> In x (l1 ++ t :: l2).
Proof. rewrite !in_app_iff. intros [H|H]; [left|right; right]; exact H. Qed.

Lemma In_map_pair {A B} (a : A) (b b' : B) l : In (a, b) (map (fun x => (x, b')) l) <-> In a l /\ b = b'.
Proof.
  rewrite in_map_iff. split.
  - intros [x [E Hx]]. inversion E; subst. tauto.
  - intros [H ->]. exists a. tauto.
Qed.

Lemma Forall_I {A} (l : list A) : Forall (fun _ => True) l.
Proof. apply Forall_forall. intros; exact I. Qed.

Lemma Forall_drop {A} (P : A -> Prop) l1 t l2 : Forall P (l1 ++ t :: l2) -> Forall P (l1 ++ l2).
Proof. rewrite !Forall_app. intros [H1 H2]. split; [exact H1|exact (Forall_inv_tail H2)]. Qed.

Lemma forallb_Forall {A} (p : A -> bool) (Q : A -> Prop) l :
  (forall x, p x = true -> Q x) -> forallb p l = true -> Forall Q l.
Proof. rewrite forallb_forall, Forall_forall. auto. Qed.

Lemma forallb_impl {A} (p q : A -> bool) l :
  (forall x, p x = true -> q x = true) -> forallb p l = true -> forallb q l = true.
Proof. rewrite !forallb_forall. auto. Qed.

Lemma forallb_if {A} (f : A -> bool) (c : bool) l1 l2 :
  forallb f l1 = true -> forallb f l2 = true -> forallb f (if c then l1 else l2) = true.
Proof. destruct c; intros H1 H2; assumption. Qed.

Lemma forallb_repeat {A} (f : A -> bool) x n : f x = true -> forallb f (repeat x n) = true.
Proof. intros H. induction n as [|n IH]; [reflexivity|]. cbn. rewrite H. exact IH. Qed.

Lemma forallb_map {A B} (f : A -> B) p l : forallb p (map f l) = forallb (fun x => p (f x)) l.
Proof. induction l as [|a l IH]; cbn; [|rewrite IH]; reflexivity. Qed.

Lemma existsb_map {A B} (f : B -> bool) (g : A -> B) l : existsb f (map g l) = existsb (fun x => f (g x)) l.
Proof. induction l as [|x l IH]; cbn [map existsb]; [|rewrite IH]; reflexivity. Qed.

Lemma existsb_false_In {A} (f : A -> bool) l x : existsb f l = false -> In x l -> f x = false.
Proof.
  intros H Hx. destruct (f x) eqn:E; [|reflexivity].
  rewrite <- H. symmetry. apply existsb_exists. exists x. split; assumption.
Qed.

Lemma existsb_false_filter {A} (f : A -> bool) l : existsb f l = false -> filter f l = [].
Proof.
  induction l as [|x l IH]; cbn; [reflexivity|].
  destruct (f x); [discriminate | exact IH].
Qed.

Lemma existsb_last {A} (f : A -> bool) l : existsb f l = true ->
  exists l1 x l2, l = l1 ++ x :: l2 /\ f x = true /\ existsb f l2 = false.
Proof.
  induction l as [|y l IH]; cbn [existsb]; intros H; [discriminate|].
  destruct (existsb f l) eqn:El.
  - destruct (IH eq_refl) as (l1 & x & l2 & -> & Hx & H2). exists (y :: l1), x, l2. auto.
  - rewrite Bool.orb_false_r in H. exists [], y, l. auto.
Qed.

Lemma filter_filter {A} (f g : A -> bool) l : filter g (filter f l) = filter (fun x => andb (f x) (g x)) l.
Proof.
  induction l as [|x l IH]; [reflexivity|]. cbn [filter].
  destruct (f x); cbn [filter andb]; [destruct (g x)|]; rewrite IH; reflexivity.
Qed.

Lemma filter_map_comm {A B} (f : B -> bool) (g : A -> B) l :
  filter f (map g l) = map g (filter (fun x => f (g x)) l).
Proof.
  induction l as [|x l IH]; cbn [map filter]; [reflexivity|].
  destruct (f (g x)); cbn [map]; rewrite IH; reflexivity.
Qed.

Lemma filter_repeat_false {A} (f : A -> bool) x k : f x = false -> filter f (repeat x k) = [].
Proof. intros H. induction k as [|k IH]; cbn [repeat filter]; [|rewrite H]; trivial. Qed.

Lemma filter_pairs {A B} (p : A -> bool) k (vs : list B) :
  filter (fun h => p (fst h)) (map (fun v => (k, v)) vs) = if p k then map (fun v => (k, v)) vs else [].
Proof.
  induction vs as [|v vs IH]; cbn [map filter fst]; [destruct (p k); reflexivity|].
  rewrite IH. destruct (p k); reflexivity.
Qed.

Lemma map_snd_pair {A B} (k : A) (vs : list B) : map snd (map (fun v => (k, v)) vs) = vs.
Proof. rewrite map_map. apply map_id. Qed.

Lemma map_repeat {A B} (f : A -> B) x n : map f (repeat x n) = repeat (f x) n.
Proof. induction n as [|n IH]; [reflexivity|cbn; rewrite IH; reflexivity]. Qed.

Lemma rev_repeat {A} (x : A) n : rev (repeat x n) = repeat x n.
Proof.
  induction n as [|n IH]; [reflexivity|].
  cbn [repeat rev]. rewrite IH. symmetry. apply (repeat_cons n x).
Qed.

Lemma concat_singletons {A} (l : list A) : concat (map (fun r => [r]) l) = l.
Proof. induction l as [|x l IH]; cbn; [reflexivity|]. rewrite IH. reflexivity. Qed.

Lemma singletons_ne {A} (l : list A) : Forall (fun g => g <> []) (map (fun r => [r]) l).
Proof. induction l; cbn; constructor; [discriminate|assumption]. Qed.

Lemma concat_flat_map {A B} (f : A -> list (list B)) l :
  concat (flat_map f l) = concat (map (fun p => concat (f p)) l).
Proof. induction l as [|x l IH]; [reflexivity|]. cbn [flat_map map concat]. rewrite concat_app, IH. reflexivity. Qed.

Lemma fold_left_inv {A B} (f : A -> B -> A) (P : A -> Prop) :
  (forall a b, P a -> P (f a b)) -> forall l a, P a -> P (fold_left f l a).
Proof. intros H l. induction l as [|b l IH]; intros a Ha; cbn; [exact Ha | apply IH, H, Ha]. Qed.

Lemma firstn_exact {A} n (a b : list A) : length a = n -> firstn n (a ++ b) = a.
Proof. intros <-. induction a as [|x a IH]; cbn; [reflexivity|rewrite IH; reflexivity]. Qed.

Lemma skipn_exact {A} n (a b : list A) : length a = n -> skipn n (a ++ b) = b.
Proof. intros <-. induction a as [|x a IH]; [reflexivity|exact IH]. Qed.

Lemma skipn_nth {A} (l : list A) f d : f < length l -> skipn f l = nth f l d :: skipn (S f) l.
Proof.
  revert f. induction l as [|a l IH]; intros f H; [inversion H|].
  destruct f; [reflexivity|]. exact (IH f (le_S_n _ _ H)).
Qed.

Lemma nth_error_lt {A} (l : list A) i a : nth_error l i = Some a -> i < length l.
Proof. intros H. apply nth_error_Some. congruence. Qed.

Lemma nth_error_map_const {A B} (b : B) (l : list A) i r :
  nth_error (map (fun _ => b) l) i = Some r -> r = b.
Proof.
  intros H. apply nth_error_In, in_map_iff in H. destruct H as (_ & <- & _). reflexivity.
Qed.

Lemma nth_error_combine {A B} (l1 : list A) (l2 : list B) j :
  nth_error (combine l1 l2) j =
  match nth_error l1 j, nth_error l2 j with Some a, Some b => Some (a, b) | _, _ => None end.
Proof.
  revert l2 j. induction l1 as [|a l1 IH]; intros [|b l2] [|j]; cbn; try reflexivity.
  - destruct (nth_error l1 j); reflexivity.
  - apply IH.
Qed.

Lemma in_combine_nth {A B} (l1 : list A) (l2 : list B) a b :
  In (a, b) (combine l1 l2) <-> exists j, nth_error l1 j = Some a /\ nth_error l2 j = Some b.
Proof.
  split.
  - intros H. apply In_nth_error in H. destruct H as [j Hj]. rewrite nth_error_combine in Hj.
    destruct (nth_error l1 j) as [a'|] eqn:E1; [|discriminate].
    destruct (nth_error l2 j) as [b'|] eqn:E2; [|discriminate]. injection Hj as -> ->. eauto.
  - intros (j & H1 & H2). apply (nth_error_In _ j). now rewrite nth_error_combine, H1, H2.
Qed.

Lemma NoDup_app_iff {A} (a b : list A) :
  NoDup (a ++ b) <-> NoDup a /\ NoDup b /\ (forall x, In x a -> In x b -> False).
Proof.
  induction a as [|y a IH]; cbn [app].
  - split; [intros H; repeat split; [constructor | exact H | intros x []] | intros (_ & H & _); exact H].
  - rewrite !NoDup_cons_iff, IH, in_app_iff. split.
    + intros (Hy & Ha & Hb & Hd). repeat split; try tauto.
      intros x [<-|Hx] Hxb; [tauto | exact (Hd x Hx Hxb)].
    + intros ((Hy & Ha) & Hb & Hd). repeat split; try tauto.
      * intros [Hya|Hyb]; [tauto | exact (Hd y (or_introl eq_refl) Hyb)].
      * intros x Hx. exact (Hd x (or_intror Hx)).
Qed.

Lemma NoDup_snoc {A} (l : list A) x : NoDup l -> ~ In x l -> NoDup (l ++ [x]).
Proof.
  intros Hl Hx. apply NoDup_app_iff. repeat split; [exact Hl | repeat constructor; intros [] |].
  intros y Hy [<-|[]]. exact (Hx Hy).
Qed.

Lemma NoDup_map_nth_error {A B} (f : A -> B) l i j a b :
  NoDup (map f l) -> nth_error l i = Some a -> nth_error l j = Some b -> f a = f b -> i = j.
Proof.
  intros Hnd Hi Hj E. apply (proj1 (NoDup_nth_error (map f l)) Hnd).
  - apply nth_error_Some. rewrite nth_error_map, Hi. discriminate.
  - rewrite !nth_error_map, Hi, Hj. cbn [option_map]. congruence.
Qed.
