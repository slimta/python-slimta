(* Facts about the generated Unicode class tables (gen/UnicodeTables.v) needed to
   instantiate the Reply-object theorems.  Re-proved against the regenerated
   tables on every build. *)
From Coq Require Import List NArith Bool.
From SV Require Import gen.UnicodeTables.
Import ListNotations.
Open Scope N_scope.

Definition rdisj1 (r : N * N) (b : list (N * N)) : bool :=
  forallb (fun q => (snd r <? fst q) || (snd q <? fst r)) b.
Definition rdisj (a b : list (N * N)) : bool := forallb (fun r => rdisj1 r b) a.

Lemma rdisj1_sound : forall lo hi b c, rdisj1 (lo, hi) b = true -> lo <= c <= hi -> in_ranges b c = false.
Proof.
  intros lo hi b c. induction b as [|[lo2 hi2] b IH]; intros H Hc; [reflexivity|].
  cbn in H. apply andb_true_iff in H. destruct H as [H1 H2].
  cbn [in_ranges]. rewrite (IH H2 Hc), orb_false_r. apply andb_false_iff.
  apply orb_true_iff in H1. destruct H1 as [H|H]; apply N.ltb_lt in H; [left|right]; apply N.leb_gt.
  - exact (N.le_lt_trans _ _ _ (proj2 Hc) H).
  - exact (N.lt_le_trans _ _ _ H (proj1 Hc)).
Qed.

Lemma rdisj_sound : forall a b c, rdisj a b = true -> in_ranges a c = true -> in_ranges b c = false.
Proof.
  induction a as [|[lo hi] a IH]; intros b c H Hc; [discriminate|].
  cbn in H. apply andb_true_iff in H. destruct H as [H1 H2].
  cbn [in_ranges] in Hc. apply orb_true_iff in Hc. destruct Hc as [Hc|Hc].
  - apply andb_true_iff in Hc. destruct Hc as [A B]. apply N.leb_le in A, B.
    exact (rdisj1_sound lo hi b c H1 (conj A B)).
  - apply IH; assumption.
Qed.

Lemma udigit_46 : udigit 46 = false. Proof. vm_compute. reflexivity. Qed.
Lemma udigit_48 : udigit 48 = true. Proof. vm_compute. reflexivity. Qed.
Lemma uspace_32 : uspace 32 = true. Proof. vm_compute. reflexivity. Qed.
Lemma uspace_10 : uspace 10 = true. Proof. vm_compute. reflexivity. Qed.
Lemma uspace_13 : uspace 13 = true. Proof. vm_compute. reflexivity. Qed.
Lemma digit_space_disjoint : forall c, udigit c = true -> uspace c = false.
Proof.
  intros c H. unfold udigit, uspace in *. apply (rdisj_sound udigit_ranges); [vm_compute; reflexivity|exact H].
Qed.
