(* Arithmetic of N in base k.  A number written with two digits is x * k + y with y < k;
   digits3 and digits4 are the base-64 digits of UTF-8; div_ltb and div_div' say what dividing
   by the radix does to the tests of a printer that works digit by digit, and radix_ind is
   induction over the digits. *)
From Coq Require Import NArith Lia.
Open Scope N_scope.

Lemma digits_div : forall k x y, y < k -> (x * k + y) / k = x.
Proof. intros k x y H. rewrite N.div_add_l, N.div_small, N.add_0_r by lia. reflexivity. Qed.

Lemma digits_mod : forall k x y, y < k -> (x * k + y) mod k = y.
Proof. intros k x y H. rewrite N.add_comm, N.mod_add, N.mod_small by lia. reflexivity. Qed.

Lemma digits_eq : forall k x, x / k * k + x mod k = x.
Proof. intros. rewrite N.mul_comm. symmetry. apply N.div_mod'. Qed.

Lemma digits_lt : forall k m x, x < m * k -> x / k < m /\ x mod k < k.
Proof.
  intros k m x H. assert (k <> 0) by (intros ->; lia).
  split; [apply N.div_lt_upper_bound; [assumption|lia]|apply N.mod_lt; assumption].
Qed.

Lemma add_sub_l : forall k x, k + x - k = x.
Proof. intros k x. rewrite N.add_comm. apply N.add_sub. Qed.

Lemma digits3 : forall c, c / 4096 * 4096 + (c / 64) mod 64 * 64 + c mod 64 = c.
Proof.
  intro c. pose proof (digits_eq 64 c). pose proof (digits_eq 64 (c / 64)).
  rewrite (N.div_div c 64 64) in * by discriminate. change (64 * 64) with 4096 in *. lia.
Qed.

Lemma digits4 : forall c, c / 262144 * 262144 + (c / 4096) mod 64 * 4096 + (c / 64) mod 64 * 64 + c mod 64 = c.
Proof.
  intro c. pose proof (digits3 c). pose proof (digits_eq 64 (c / 4096)).
  rewrite (N.div_div c 4096 64) in * by discriminate. change (4096 * 64) with 262144 in *. lia.
Qed.

Lemma div_ltb : forall b n m m', b <> 0 -> m' = m * b -> (n / b <? m) = (n <? m').
Proof.
  intros b n m m' Hb ->. destruct (N.ltb_spec n (m * b)) as [H|H].
  - apply N.ltb_lt, N.div_lt_upper_bound; [exact Hb|]. rewrite N.mul_comm. exact H.
  - apply N.ltb_ge, N.div_le_lower_bound; [exact Hb|]. rewrite N.mul_comm. exact H.
Qed.

Lemma div_div' : forall b n m m', b <> 0 -> m <> 0 -> m' = b * m -> n / b / m = n / m'.
Proof. intros b n m m' Hb Hm ->. apply N.div_div; assumption. Qed.

Lemma radix_ind : forall (b B : N) (P : N -> Prop), 1 < b ->
  (forall n, n < b -> P n) ->
  (forall n, b <= n < B -> P (n / b) -> P n) ->
  forall n, n < B -> P n.
Proof.
  intros b B P Hb H0 HS n. induction n as [n IH] using (well_founded_induction N.lt_wf_0). intros Hn.
  destruct (N.lt_ge_cases n b) as [H|H]; [exact (H0 n H)|].
  assert (n / b < n) by (apply N.div_lt; lia).
  apply HS; [split; assumption|]. apply IH; [assumption|lia].
Qed.
