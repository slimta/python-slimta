(* Queue._run_policies over model/Policy.v (property C16).  What one policy makes of one envelope is collected in
   `apply_facts`; `recurse_ok` carries it through a chain under the invariant `Inv` (the objects of the results are
   pairwise different and numbered below the counter) and gives `run_spec`.  Then the header block a chain builds
   (`hdr_chain_shape`; Date and Message-Id as the two instances of `adds_only`), Forward's scan of its rules, several
   messages through one chain, and in Section Stateless equivariance under renaming of the objects. *)
From Coq Require Import List NArith Bool Lia Permutation.
From SV Require Import lib.Bytes model.Policy proof.List_lemmas.
Import ListNotations.
Open Scope N_scope.

Definition fresh (lo hi : N) (l : list N) : Prop :=
  lo <= hi /\ NoDup l /\ Forall (fun i => lo <= i /\ i < hi) l.

Lemma fresh_app : forall lo mid hi a b, fresh lo mid a -> fresh mid hi b -> fresh lo hi (a ++ b).
Proof.
  intros lo mid hi a b (L1 & N1 & F1) (L2 & N2 & F2). split; [lia|]. split.
  - apply NoDup_app_iff. repeat split; trivial. intros x Ha Hb.
    rewrite Forall_forall in F1, F2. specialize (F1 x Ha). specialize (F2 x Hb). lia.
  - apply Forall_app. split; [eapply Forall_impl; [|exact F1]|eapply Forall_impl; [|exact F2]]; cbn beta; lia.
Qed.

Lemma fresh_perm : forall lo hi a b, Permutation a b -> fresh lo hi a -> fresh lo hi b.
Proof.
  intros lo hi a b HP (L & Hn & Hf).
  exact (conj L (conj (Permutation_NoDup HP Hn) (Permutation_Forall HP Hf))).
Qed.

Lemma fresh_block : forall n, fresh n (n + 4) [n; n + 1; n + 2; n + 3].
Proof. intros n. split; [lia|]. split; repeat constructor; cbn [In]; lia. Qed.

Lemma fresh_subst : forall lo mid hi a x b c,
  fresh lo mid (a ++ x ++ b) -> fresh mid hi c -> fresh lo hi (a ++ c ++ b).
Proof.
  intros lo mid hi a x b c H Hc. apply (fresh_perm _ _ _ _ (Permutation_app_swap_app a x b)) in H.
  destruct H as (L & Hn & Hf). apply NoDup_app_iff in Hn as (_ & Hn & _). apply Forall_app in Hf as [_ Hf].
  apply (fresh_perm lo hi ((a ++ b) ++ c)); [|exact (fresh_app _ _ _ _ _ (conj L (conj Hn Hf)) Hc)].
  rewrite <- app_assoc. apply Permutation_app_head, Permutation_app_comm.
Qed.

Lemma NoDup_ids_eid : forall l, NoDup (flat_map ids l) -> NoDup (map eid l).
Proof.
  induction l as [|x l IH]; cbn [flat_map map]; intros H; [constructor|].
  apply NoDup_app_iff in H as (_ & H2 & H3). constructor; [|exact (IH H2)].
  intros Hin. apply in_map_iff in Hin as (y & Ey & Hy).
  apply (H3 (eid x)); [left; reflexivity|]. rewrite <- Ey. apply in_flat_map. exists y. split; [exact Hy|left; reflexivity].
Qed.

Lemma find_eid_Some : forall i l x, find_eid i l = Some x -> In x l /\ eid x = i.
Proof.
  induction l as [|y l IH]; intros x H; cbn [find_eid] in H; [discriminate|].
  destruct (N.eqb_spec (eid y) i) as [E|_].
  - inversion H; subst. split; [left|]; reflexivity.
  - destruct (IH x H) as [H1 H2]. split; [right; exact H1|exact H2].
Qed.

Lemma find_eid_In : forall l x, NoDup (map eid l) -> In x l -> find_eid (eid x) l = Some x.
Proof.
  induction l as [|y l IH]; intros x Hn Hin; [inversion Hin|].
  cbn [map] in Hn. apply NoDup_cons_iff in Hn as [Hy Hn]. cbn [find_eid].
  destruct Hin as [->|Hin]; [rewrite N.eqb_refl; reflexivity|].
  destruct (N.eqb_spec (eid y) (eid x)) as [E|_]; [|exact (IH x Hn Hin)].
  destruct Hy. rewrite E. apply in_map. exact Hin.
Qed.

Lemma remove_eid_perm : forall i l x, find_eid i l = Some x -> Permutation l (x :: remove_eid i l).
Proof.
  induction l as [|y l IH]; intros x H; cbn [find_eid remove_eid] in *; [discriminate|].
  destruct (eid y =? i).
  - inversion H; subst. reflexivity.
  - rewrite (IH x H) at 1. apply perm_swap.
Qed.

Lemma replace_absent : forall e' l, ~ In (eid e') (map eid l) -> replace_eid e' l = l.
Proof.
  induction l as [|z l IH]; intros H; [reflexivity|].
  cbn [replace_eid map In] in *. fold (replace_eid e' l).
  destruct (N.eqb_spec (eid z) (eid e')); [tauto|]. rewrite IH; tauto.
Qed.

Lemma replace_eid_perm : forall e' l x,
  NoDup (map eid l) -> find_eid (eid e') l = Some x ->
  Permutation (replace_eid e' l) (e' :: remove_eid (eid e') l).
Proof.
  induction l as [|y l IH]; intros x Hn H; [discriminate|].
  cbn [map] in Hn. apply NoDup_cons_iff in Hn as [Hy Hn].
  cbn [replace_eid map find_eid remove_eid] in *. fold (replace_eid e' l).
  destruct (N.eqb_spec (eid y) (eid e')) as [E|_].
  - rewrite replace_absent; [reflexivity|]. rewrite <- E. exact Hy.
  - rewrite (IH x Hn H). apply perm_swap.
Qed.

Section PolicyFacts.
  Variable rule : Type.
  Variable subn : rule -> bytes -> bytes * N.
  Variable lower : bytes -> bytes.
  Variable date_of mid_of recv_of : env -> bytes.

  Notation policy := (policy rule).
  Notation apply := (apply rule subn lower date_of mid_of recv_of).
  Notation recurse := (recurse rule subn lower date_of mid_of recv_of).
  Notation run_policies := (run_policies rule subn lower date_of mid_of recv_of).
  Notation rw := (rw rule subn).
  Notation rw_chain := (rw_chain rule subn).
  Notation fwd_rcpt := (fwd_rcpt rule subn).
  Notation hdr_ok := (hdr_ok rule).
  Notation hdr_chain_ok := (hdr_chain_ok rule).

  Definition same_sb (e y : env) : Prop := sender y = sender e /\ body y = body e.

  Lemma copies_spec : forall groups n e cs n',
    copies n e groups = (cs, n') -> Forall (fun g => g <> []) groups ->
    map rcpts cs = groups /\ Forall (fun c => same_sb e c /\ hdr c = hdr e) cs /\ fresh n n' (flat_map ids cs).
  Proof.
    induction groups as [|g gs IH]; intros n e cs n' H Hne; cbn [copies] in H.
    - inversion H; subst. repeat split; try constructor. lia.
    - inversion Hne as [|? ? Hg Hgs]; subst.
      unfold copy in H. destruct (copies (n + 4) e gs) as [cs' n2] eqn:EC. injection H as <- <-.
      destruct (IH _ _ _ _ EC Hgs) as (H1 & H2 & H3). split; [|split].
      + cbn [map rcpts]. rewrite H1. destruct g; [congruence|reflexivity].
      + constructor; [repeat split|exact H2].
      + exact (fresh_app _ _ _ _ _ (fresh_block n) H3).
  Qed.

  Lemma add_group_perm : forall d r g,
    Permutation (concat (map snd (add_group d r g))) (r :: concat (map snd g)).
  Proof.
    induction g as [|[d' rs] g IH]; cbn [add_group]; [reflexivity|].
    destruct (beqb d d'); cbn [map snd concat].
    - rewrite <- app_assoc. symmetry. apply Permutation_middle.
    - rewrite IH. symmetry. apply Permutation_middle.
  Qed.

  Lemma add_group_ne : forall d r g,
    Forall (fun x : bytes * list bytes => snd x <> []) g -> Forall (fun x : bytes * list bytes => snd x <> []) (add_group d r g).
  Proof.
    induction g as [|[d' rs] g IH]; intros H; cbn [add_group].
    - constructor; [discriminate|constructor].
    - inversion H as [|? ? H1 H2]; subst. destruct (beqb d d').
      + constructor; [|exact H2]. cbn. destruct rs; discriminate.
      + constructor; [exact H1|exact (IH H2)].
  Qed.

  Notation domain_groups := (domain_groups lower).

  Lemma domain_groups_spec : forall rs g bad g' bad',
    domain_groups rs g bad = (g', bad') ->
    Forall (fun x : bytes * list bytes => snd x <> []) g ->
    Permutation (concat (map snd g') ++ bad') (concat (map snd g) ++ bad ++ rs)
    /\ Forall (fun x : bytes * list bytes => snd x <> []) g'.
  Proof.
    induction rs as [|r rs IH]; intros g bad g' bad' H Hne; cbn [Policy.domain_groups] in H.
    - inversion H; subst. rewrite app_nil_r. split; [reflexivity|exact Hne].
    - destruct (get_domain lower r) as [d|].
      + destruct (IH _ _ _ _ H (add_group_ne d r g Hne)) as [P1 P2]. split; [|exact P2].
        rewrite P1, add_group_perm. cbn [app]. rewrite !app_assoc. apply Permutation_middle.
      + destruct (IH _ _ _ _ H Hne) as [P1 P2]. split; [|exact P2].
        rewrite P1, <- !app_assoc. reflexivity.
  Qed.

  Definition outs (e' : env) (ret : option (list env)) : list env :=
    match ret with Some (y :: l) => y :: l | _ => [e'] end.

  (* what one policy makes of e: the envelopes that go on (outs), their recipients, contents and objects;
     among the objects there are (R: those of the other results) theirs take the place of those of e *)
  Record apply_facts (p : policy) (n : N) (e e' : env) (ret : option (list env)) (n' : N) : Prop := {
    af_eid : eid e' = eid e;
    af_rcpts : Permutation (flat_map rcpts (outs e' ret)) (map (rw p) (rcpts e));
    af_content : Forall (fun y => same_sb e y /\ hdr_ok p (hdr e) (hdr y)) (outs e' ret);
    af_fresh : forall lo R, fresh lo n (ids e ++ R) -> fresh lo n' (flat_map ids (outs e' ret) ++ R)
  }.

  Lemma ids_self : forall e, Forall (fun i => In i (ids e) \/ False) (ids e).
  Proof. intros e. apply Forall_forall. intros i Hi. left. exact Hi. Qed.

  Lemma kept_facts : forall p n e e' ret,
    outs e' ret = [e'] -> ids e' = ids e -> sender e' = sender e -> body e' = body e ->
    rcpts e' = map (rw p) (rcpts e) -> hdr_ok p (hdr e) (hdr e') ->
    apply_facts p n e e' ret n.
  Proof.
    intros p n e e' ret Ho Hi Hs Hb Hr Hh.
    constructor; rewrite ?Ho; cbn [flat_map]; rewrite ?app_nil_r, ?Hi.
    - exact (f_equal (hd 0) Hi).
    - rewrite Hr. reflexivity.
    - repeat constructor; assumption.
    - trivial.
  Qed.

  Lemma map_rw_id : forall p l, (forall r, rw p r = r) -> map (rw p) l = l.
  Proof. intros p l H. rewrite <- (map_id l) at 2. apply map_ext. exact H. Qed.

  Lemma unchanged_facts : forall p n e ret,
    (forall r, rw p r = r) -> hdr_ok p (hdr e) (hdr e) -> outs e ret = [e] -> apply_facts p n e e ret n.
  Proof. intros p n e ret Hr Hh Ho. apply kept_facts; trivial. symmetry. apply map_rw_id, Hr. Qed.

  Lemma split_facts : forall p n e groups cs n',
    (forall r, rw p r = r) -> (forall h, hdr_ok p h h) ->
    copies n e groups = (cs, n') -> Forall (fun g => g <> []) groups -> groups <> [] ->
    Permutation (concat groups) (rcpts e) ->
    apply_facts p n e e (Some cs) n'.
  Proof.
    intros p n e groups cs n' Hrw Hh HC Hne Hgs HP.
    destruct (copies_spec groups n e cs n' HC Hne) as (H2 & H3 & H4).
    assert (Ecs : outs e (Some cs) = cs).
    { destruct cs as [|c cs]; [|reflexivity]. destruct groups; [congruence|discriminate]. }
    constructor; rewrite ?Ecs.
    - reflexivity.
    - rewrite flat_map_concat_map, H2, (map_rw_id p _ Hrw). exact HP.
    - eapply Forall_impl; [|exact H3]. intros y [Hs Hc]. split; [exact Hs|]. rewrite Hc. apply Hh.
    - intros lo R F. exact (fresh_subst _ _ _ [] _ _ _ F H4).
  Qed.

  Lemma hdr_ok_refl_nonhdr : forall p : policy,
    match p with PDate | PMid | PReceived => False | _ => True end -> forall h, hdr_ok p h h.
  Proof. intros p Hp h. destruct p; cbn in *; try reflexivity; contradiction. Qed.

  Lemma apply_ok : forall p n e e' ret n',
    apply p n e = (e', ret, n') -> apply_facts p n e e' ret n'.
  Proof.
    intros p n e e' ret n' H. destruct p; cbn [Policy.apply] in H.
    - (* RecipientSplit *)
      destruct (rcpts e) as [|r1 [|r2 rest]] eqn:ER.
      1,2: injection H as <- <- <-; apply unchanged_facts; reflexivity.
      destruct (copies n e (map (fun r => [r]) (r1 :: r2 :: rest))) as [cs n2] eqn:EC.
      injection H as <- <- <-. eapply split_facts; try exact EC; try reflexivity.
      + apply singletons_ne.
      + discriminate.
      + rewrite concat_singletons, ER. reflexivity.
    - (* RecipientDomainSplit *)
      destruct (Policy.domain_groups lower (rcpts e) [] []) as [g bad] eqn:ED.
      destruct (domain_groups_spec _ _ _ _ _ ED (Forall_nil _)) as [P1 P2]. cbn [map concat app] in P1.
      destruct (N.of_nat (length g) + N.of_nat (length bad) <=? 1) eqn:EL.
      + injection H as <- <- <-. apply unchanged_facts; reflexivity.
      + destruct (copies n e (map snd g ++ map (fun r => [r]) bad)) as [cs n2] eqn:EC.
        injection H as <- <- <-. eapply split_facts; try exact EC; try reflexivity.
        * apply Forall_app. split; [|apply singletons_ne].
          apply Forall_map. exact P2.
        * destruct g, bad; cbn in EL |- *; discriminate.
        * rewrite concat_app, concat_singletons. exact P1.
    - (* Forward *)
      injection H as <- <- <-. apply kept_facts; trivial; reflexivity.
    - (* AddDateHeader *)
      destruct (has_header n_date (hdr e)) eqn:EH; injection H as <- <- <-;
        apply kept_facts; rewrite ?map_rw_id by reflexivity; trivial;
        cbn [Policy.hdr_ok hdr set_hdr]; rewrite EH; eauto.
    - (* AddMessageIdHeader *)
      destruct (has_header n_mid (hdr e)) eqn:EH; injection H as <- <- <-;
        apply kept_facts; rewrite ?map_rw_id by reflexivity; trivial;
        cbn [Policy.hdr_ok hdr set_hdr]; rewrite EH; eauto.
    - (* AddReceivedHeader *)
      injection H as <- <- <-. apply kept_facts; rewrite ?map_rw_id by reflexivity; trivial.
      cbn [Policy.hdr_ok hdr set_hdr]. eauto.
    - (* returns [envelope] *)
      injection H as <- <- <-. apply unchanged_facts; reflexivity.
    - (* keeps the input with its first recipient in a new list, copies for the rest *)
      destruct (rcpts e) as [|r1 [|r2 rest]] eqn:ER.
      1,2: injection H as <- <- <-; apply unchanged_facts; reflexivity.
      set (e1 := set_rcpts e [r1] n) in *.
      destruct (copies (n + 1) e1 (map (fun r => [r]) (r2 :: rest))) as [cs n2] eqn:EC.
      injection H as <- <- <-.
      destruct (copies_spec _ _ _ _ _ EC (singletons_ne _)) as (H2 & H3 & H4).
      constructor; cbn [outs flat_map].
      + reflexivity.
      + rewrite flat_map_concat_map, H2, concat_singletons, map_rw_id, ER by reflexivity. reflexivity.
      + constructor; [repeat split|].
        eapply Forall_impl; [|exact H3]. intros y [Hs Hc]. split; assumption.
      + (* the new recipients list n takes the place of the old one, then the copies come in *)
        intros lo R F. rewrite <- app_assoc. apply (fresh_subst lo (n + 1) n2 (ids e1) [] R _); [|exact H4].
        refine (fresh_subst lo n (n + 1) [eid e] [rid e] (hid e :: cid e :: R) [n] F _).
        split; [lia|]. split; repeat constructor; [intros []|lia..].
  Qed.

  Definition Inv (lo : N) (s : st) : Prop :=
    failed s = false /\ fresh lo (next s) (flat_map ids (results s)).

  Definition elem_ok (chain : list policy) (e y : env) : Prop :=
    same_sb e y /\ hdr_chain_ok chain (hdr e) (hdr y).

  Definition covers (chain : list policy) (l E : list env) : Prop :=
    Permutation (flat_map rcpts E) (map (rw_chain chain) (flat_map rcpts l))
    /\ Forall (fun y => exists x, In x l /\ elem_ok chain x y) E.

  Definition post (chain : list policy) (lo : N) (l R : list env) (s' : st) : Prop :=
    Inv lo s' /\ exists E, Permutation (results s') (R ++ E) /\ covers chain l E.

  Lemma covers_nil : forall chain, covers chain [] [].
  Proof. intros. split; constructor. Qed.

  Lemma covers_cons : forall chain x l Ea Eb,
    covers chain [x] Ea -> covers chain l Eb -> covers chain (x :: l) (Ea ++ Eb).
  Proof.
    intros chain x l Ea Eb [Pa Oa] [Pb Ob]. cbn [flat_map] in Pa. rewrite app_nil_r in Pa. split.
    - cbn [flat_map]. rewrite flat_map_app, map_app, Pa, Pb. reflexivity.
    - apply Forall_app. split.
      + eapply Forall_impl; [|exact Oa]. intros y (z & [<-|[]] & Hy). exists x. split; [left; reflexivity|exact Hy].
      + eapply Forall_impl; [|exact Ob]. intros y (z & Hz & Hy). exists z. split; [right; exact Hz|exact Hy].
  Qed.

  Lemma covers_end : forall e, covers [] [e] [e].
  Proof.
    intros e. split; [cbn [Policy.rw_chain]; rewrite map_id; reflexivity|].
    repeat constructor. exists e. repeat split. left. reflexivity.
  Qed.

  Lemma covers_step : forall p chain n e e' ret n' E,
    apply_facts p n e e' ret n' -> covers chain (outs e' ret) E -> covers (p :: chain) [e] E.
  Proof.
    intros p chain n e e' ret n' E A [PE OE]. split.
    - cbn [flat_map]. rewrite app_nil_r, PE, (af_rcpts _ _ _ _ _ _ A), map_map. reflexivity.
    - eapply Forall_impl; [|exact OE]. intros y (x & Hx & [T1 T2] & Hc).
      pose proof (af_content _ _ _ _ _ _ A) as C. rewrite Forall_forall in C. destruct (C x Hx) as [[S1 S2] Hh].
      exists e. split; [left; reflexivity|]. split; [split; congruence|]. exists (hdr x). split; assumption.
  Qed.

  (* `for env in ret: recurse(env, i+1)`, given what one such call does *)
  Lemma walk_ok : forall chain lo,
    (forall s cur e, Inv lo s -> find_eid cur (results s) = Some e ->
                     post chain lo [e] (remove_eid cur (results s)) (recurse chain cur s)) ->
    forall l s R, Inv lo s -> Permutation (results s) (l ++ R) -> post chain lo l R (fold_left (fun s0 x => recurse chain (eid x) s0) l s).
  Proof.
    intros chain lo IH. induction l as [|x l IHl]; intros s R HI HP; cbn [fold_left].
    - split; [exact HI|]. exists []. rewrite app_nil_r. split; [exact HP|apply covers_nil].
    - assert (Hfx : find_eid (eid x) (results s) = Some x).
      { apply find_eid_In; [apply NoDup_ids_eid, HI|]. rewrite HP. left. reflexivity. }
      destruct (IH s (eid x) x HI Hfx) as (HIa & Ea & PEa & Ca).
      destruct (IHl _ (R ++ Ea) HIa) as (HIb & Eb & PEb & Cb).
      { rewrite PEa, app_assoc. apply Permutation_app_tail. apply (Permutation_cons_inv (a := x)).
        rewrite <- (remove_eid_perm _ _ _ Hfx). exact HP. }
      split; [exact HIb|]. exists (Ea ++ Eb). split; [rewrite app_assoc; exact PEb|exact (covers_cons _ _ _ _ _ Ca Cb)].
  Qed.

  Lemma recurse_cons : forall p chain cur s e e' ret n',
    find_eid cur (results s) = Some e -> apply p (next s) e = (e', ret, n') -> eid e' = cur ->
    NoDup (map eid (results s)) ->
    exists s1, recurse (p :: chain) cur s = fold_left (fun s0 x => recurse chain (eid x) s0) (outs e' ret) s1
      /\ Permutation (results s1) (outs e' ret ++ remove_eid cur (results s))
      /\ next s1 = n' /\ failed s1 = failed s.
  Proof.
    intros p chain cur s e e' ret n' Hf Ha <- Hn. cbn [Policy.recurse]. rewrite Hf, Ha.
    pose proof (replace_eid_perm e' _ e Hn Hf) as HPk.
    destruct ret as [[|y l]|]; cbn [outs].
    - exists (mkst (replace_eid e' (results s)) n' (failed s)). repeat split. exact HPk.
    - exists (mkst (remove_eid (eid e') (results s) ++ y :: l) n' (failed s)). repeat split.
      apply Permutation_app_comm.
    - exists (mkst (replace_eid e' (results s)) n' (failed s)). repeat split. exact HPk.
  Qed.

  Theorem recurse_ok : forall lo chain s cur e,
    Inv lo s -> find_eid cur (results s) = Some e ->
    post chain lo [e] (remove_eid cur (results s)) (recurse chain cur s).
  Proof.
    intros lo. induction chain as [|p chain IH]; intros s cur e HI Hf;
      pose proof (remove_eid_perm _ _ _ Hf) as HPr.
    - split; [exact HI|]. exists [e]. split; [|apply covers_end].
      exact (perm_trans HPr (Permutation_cons_append _ _)).
    - destruct HI as (HF & HN). set (rest := remove_eid cur (results s)) in *.
      assert (HN1 : fresh lo (next s) (ids e ++ flat_map ids rest))
        by exact (fresh_perm _ _ _ _ (Permutation_flat_map ids HPr) HN).
      destruct (apply p (next s) e) as [[e' ret] n'] eqn:EA.
      pose proof (apply_ok _ _ _ _ _ _ EA) as A.
      destruct (find_eid_Some _ _ _ Hf) as [_ Hcur].
      destruct (recurse_cons p chain cur s e e' ret n' Hf EA) as (s1 & -> & HP1 & Hn1 & Hf1).
      { rewrite (af_eid _ _ _ _ _ _ A). exact Hcur. }
      { apply NoDup_ids_eid, HN. }
      destruct (walk_ok chain lo IH (outs e' ret) s1 rest) as (HI' & E & PE & HC); [|exact HP1|].
      + split; [congruence|]. rewrite Hn1.
        apply (fresh_perm _ _ _ _ (Permutation_flat_map ids (Permutation_sym HP1))). rewrite flat_map_app.
        exact (af_fresh _ _ _ _ _ _ A lo _ HN1).
      + split; [exact HI'|]. exists E. split; [exact PE|exact (covers_step _ _ _ _ _ _ _ _ A HC)].
  Qed.

  Definition fresh_input (e : env) (n0 : N) : Prop := NoDup (ids e) /\ Forall (fun i => i < n0) (ids e).

  Lemma fresh_input_fresh : forall e n0, fresh_input e n0 -> fresh 0 n0 (ids e).
  Proof.
    intros e n0 [Hn Hl]. split; [lia|]. split; [exact Hn|]. eapply Forall_impl; [|exact Hl]. cbn beta. lia.
  Qed.

  Lemma fresh_is_input : forall lo e n0, fresh lo n0 (ids e) -> fresh_input e n0.
  Proof. intros lo e n0 (_ & Hn & Hl). split; [exact Hn|]. eapply Forall_impl; [|exact Hl]. cbn beta. lia. Qed.

  Lemma mk_input_fresh : forall n m, fresh_input (mk_input n m) (n + 4).
  Proof. intros n m. exact (fresh_is_input n (mk_input n m) _ (fresh_block n)). Qed.

  Lemma run_ok : forall lo chain n0 e, fresh lo n0 (ids e) ->
    let s := run_policies chain n0 e in
    Inv lo s /\ Permutation (flat_map rcpts (results s)) (map (rw_chain chain) (rcpts e))
    /\ Forall (elem_ok chain e) (results s).
  Proof.
    intros lo chain n0 e Hf.
    destruct (recurse_ok lo chain (mkst [e] n0 false) (eid e) e) as (HI & E & PE & PR & PO).
    - split; [reflexivity|]. cbn [results next flat_map]. rewrite app_nil_r. exact Hf.
    - cbn. rewrite N.eqb_refl. reflexivity.
    - cbn [results remove_eid] in PE. rewrite N.eqb_refl in PE. cbn [app flat_map] in PE, PR.
      rewrite app_nil_r in PR. split; [exact HI|]. split.
      + rewrite <- PR. exact (Permutation_flat_map rcpts PE).
      + apply (Permutation_Forall (Permutation_sym PE)). eapply Forall_impl; [|exact PO].
        intros y (x & [<-|[]] & Hy). exact Hy.
  Qed.

  Theorem run_spec : forall chain n0 e, fresh_input e n0 ->
    let s := run_policies chain n0 e in
    failed s = false /\ NoDup (flat_map ids (results s))
    /\ Permutation (flat_map rcpts (results s)) (map (rw_chain chain) (rcpts e))
    /\ Forall (elem_ok chain e) (results s).
  Proof.
    intros chain n0 e Hf. destruct (run_ok 0 chain n0 e (fresh_input_fresh e n0 Hf)) as ((HF & _ & HN & _) & HP & HE).
    repeat split; assumption.
  Qed.

  Lemma run_elem : forall chain n0 e x, fresh_input e n0 ->
    In x (results (run_policies chain n0 e)) -> elem_ok chain e x.
  Proof.
    intros chain n0 e x Hf. destruct (run_spec chain n0 e Hf) as (_ & _ & _ & HE).
    rewrite Forall_forall in HE. exact (HE x).
  Qed.

  (* what a policy does to the header block: nothing, a new Received field on top, or the field named a
     at the end unless a field of that name is there *)
  Inductive hdr_act := HNone | HTop | HAdd (a : bytes).
  Definition hdr_act_of (p : policy) : hdr_act :=
    match p with PDate => HAdd n_date | PMid => HAdd n_mid | PReceived => HTop | _ => HNone end.

  Lemma hdr_ok_act : forall p h h',
    hdr_ok p h h' = match hdr_act_of p with
                    | HAdd a => if has_header a h then h' = h else exists v, h' = h ++ [(a, v)]
                    | HTop => exists v, h' = (n_received, v) :: h
                    | HNone => h' = h
                    end.
  Proof. intros []; reflexivity. Qed.

  Lemma appended_cons : forall p c ns,
    appended rule (p :: c) ns = match hdr_act_of p with
                                | HAdd a => if has_name a ns then appended rule c ns else a :: appended rule c (ns ++ [a])
                                | HTop => appended rule c (n_received :: ns)
                                | HNone => appended rule c ns
                                end.
  Proof. intros []; reflexivity. Qed.

  Lemma n_received_cons : forall p c,
    n_received_of rule (p :: c) = match hdr_act_of p with HTop => S (n_received_of rule c) | _ => n_received_of rule c end.
  Proof. intros []; reflexivity. Qed.

  Lemma has_header_names : forall name h, has_header name h = has_name name (map fst h).
  Proof. intros name h. unfold has_header, has_name. rewrite existsb_map. reflexivity. Qed.

  Lemma hdr_chain_shape : forall chain h h',
    hdr_chain_ok chain h h' ->
    exists pre suf, h' = pre ++ h ++ suf
      /\ map fst pre = repeat n_received (n_received_of rule chain)
      /\ map fst suf = appended rule chain (map fst h).
  Proof.
    induction chain as [|p chain IH]; intros h h' H; cbn [Policy.hdr_chain_ok] in H.
    - subst. exists [], []. rewrite app_nil_r. repeat split.
    - destruct H as (h1 & H1 & H2). destruct (IH h1 h' H2) as (pre & suf & E & Ep & Es).
      rewrite hdr_ok_act in H1. rewrite appended_cons, n_received_cons.
      destruct (hdr_act_of p) as [| |a].
      + subst h1. exists pre, suf. auto.
      + destruct H1 as (v & ->). exists (pre ++ [(n_received, v)]), suf. split; [|split; [|exact Es]].
        * rewrite E, <- app_assoc. reflexivity.
        * rewrite map_app. cbn [repeat]. rewrite repeat_cons. f_equal. exact Ep.
      + rewrite has_header_names in H1. destruct (has_name a (map fst h)).
        * subst h1. exists pre, suf. auto.
        * destruct H1 as (v & ->). exists pre, ((a, v) :: suf). split; [|split; [exact Ep|]].
          -- rewrite E, <- app_assoc. reflexivity.
          -- cbn [map fst]. rewrite Es, map_app. reflexivity.
  Qed.

  Lemma hdr_chain_app : forall c1 c2 h h',
    hdr_chain_ok (c1 ++ c2) h h' <-> exists h1, hdr_chain_ok c1 h h1 /\ hdr_chain_ok c2 h1 h'.
  Proof.
    induction c1 as [|p c1 IH]; intros c2 h h'; cbn [app Policy.hdr_chain_ok].
    - split; [intros H; exists h; auto|intros (h1 & -> & H); exact H].
    - split.
      + intros (h0 & H0 & H). apply IH in H. destruct H as (h1 & H1 & H2). eauto.
      + intros (h1 & (h0 & H0 & H1) & H2). exists h0. split; [exact H0|]. apply IH. eauto.
  Qed.

  Lemma received_on_top : forall chain h h', In PReceived chain -> hdr_chain_ok chain h h' ->
    exists c1 c2 v h1 suf,
      chain = c1 ++ PReceived :: c2 /\ existsb (is_received rule) c2 = false
      /\ h' = (n_received, v) :: h1 ++ suf
      /\ hdr_chain_ok c1 h h1
      /\ map fst suf = appended rule c2 (n_received :: map fst h1).
  Proof.
    intros chain h h' Hin Hc.
    destruct (existsb_last (is_received rule) chain) as (c1 & p & c2 & -> & Hp & H2).
    { apply existsb_exists. exists PReceived. auto. }
    destruct p; try discriminate Hp.
    apply hdr_chain_app in Hc. destruct Hc as (h1 & Hc1 & h2 & (v & ->) & Hc2).
    destruct (hdr_chain_shape c2 _ _ Hc2) as (pre & suf & E2 & Ep & Es).
    unfold n_received_of in Ep. rewrite (existsb_false_filter _ _ H2) in Ep. apply map_eq_nil in Ep. subst pre.
    exists c1, c2, v, h1, suf. auto.
  Qed.

  Lemma has_header_intro : forall name nm v h1 h2,
    ieq nm name = true -> has_header name (h1 ++ (nm, v) :: h2) = true.
  Proof.
    intros name nm v h1 h2 H. unfold has_header. rewrite existsb_app. cbn [existsb fst]. rewrite H.
    rewrite orb_true_l. apply orb_true_r.
  Qed.

  Lemma has_name_snoc : forall name ns x, has_name name (ns ++ [x]) = has_name name ns || ieq x name.
  Proof. intros. unfold has_name. rewrite existsb_app. cbn [existsb]. rewrite orb_false_r. reflexivity. Qed.

  (* isp tells the policies that add the field nm, and no other policy adds a field whose name reads as nm *)
  Definition adds_only (nm : bytes) (isp : policy -> bool) : Prop :=
    ieq n_received nm = false
    /\ forall p, match hdr_act_of p with
                 | HAdd a => ieq a nm = isp p /\ (isp p = true -> a = nm)
                 | _ => isp p = false
                 end.

  Lemma date_adds : adds_only n_date (is_date rule).
  Proof. split; [reflexivity|]. intros []; cbn; auto; split; (reflexivity || discriminate). Qed.

  Lemma mid_adds : adds_only n_mid (is_mid rule).
  Proof. split; [reflexivity|]. intros []; cbn; auto; split; (reflexivity || discriminate). Qed.

  Lemma appended_filter : forall nm isp, adds_only nm isp -> forall chain ns,
    filter (fun x => ieq x nm) (appended rule chain ns)
    = if has_name nm ns then [] else if existsb isp chain then [nm] else [].
  Proof.
    intros nm isp [Hr Hp]. induction chain as [|p chain IH]; intros ns; [destruct (has_name nm ns); reflexivity|].
    rewrite appended_cons. cbn [existsb]. specialize (Hp p). destruct (hdr_act_of p) as [| |a].
    - rewrite Hp. apply IH.
    - rewrite Hp, IH. unfold has_name. cbn [existsb]. rewrite Hr. reflexivity.
    - destruct Hp as [Ha Hn]. destruct (has_name a ns) eqn:Ea.
      + rewrite IH. destruct (isp p); [|reflexivity]. rewrite <- (Hn eq_refl), Ea. reflexivity.
      + cbn [filter]. rewrite Ha, IH, has_name_snoc, Ha. destruct (isp p).
        * rewrite <- (Hn eq_refl), Ea, orb_true_r. reflexivity.
        * rewrite orb_false_r. reflexivity.
  Qed.

  Lemma chain_named : forall nm isp, adds_only nm isp -> forall chain h h', hdr_chain_ok chain h h' ->
    exists suf, named nm h' = named nm h ++ suf
      /\ map fst suf = if has_header nm h then [] else if existsb isp chain then [nm] else [].
  Proof.
    intros nm isp A chain h h' H. destruct (hdr_chain_shape _ _ _ H) as (pre & suf & -> & Ep & Es).
    exists (named nm suf). unfold named. rewrite !filter_app. split.
    - replace (filter _ pre) with (@nil header); [reflexivity|]. symmetry. apply (map_eq_nil fst).
      rewrite <- (filter_map_comm (fun x => ieq x nm)), Ep. apply filter_repeat_false, A.
    - rewrite <- (filter_map_comm (fun x => ieq x nm)), Es, has_header_names. exact (appended_filter nm isp A chain _).
  Qed.

  Lemma named_kept : forall nm isp, adds_only nm isp -> forall chain h h', hdr_chain_ok chain h h' ->
    has_header nm h = true -> named nm h' = named nm h.
  Proof.
    intros nm isp A chain h h' H Hp. destruct (chain_named nm isp A chain h h' H) as (suf & -> & Es).
    rewrite Hp in Es. apply map_eq_nil in Es. subst suf. apply app_nil_r.
  Qed.

  Lemma named_added : forall nm isp, adds_only nm isp -> forall chain h h', hdr_chain_ok chain h h' ->
    has_header nm h = false -> map fst (named nm h') = if existsb isp chain then [nm] else [].
  Proof.
    intros nm isp A chain h h' H Hp. destruct (chain_named nm isp A chain h h' H) as (suf & -> & Es).
    rewrite Hp in Es. unfold named at 1. rewrite (existsb_false_filter _ _ Hp). exact Es.
  Qed.

  Lemma received_apply : forall n e,
    apply PReceived n e = (set_hdr e ((n_received, recv_of e) :: hdr e), None, n).
  Proof. reflexivity. Qed.

  Definition hits (ru : rule) (r : bytes) : bool :=
    let '(nr, ch) := subn ru r in negb (null nr) && (0 <? ch).

  Lemma fwd_cons : forall ru rs r,
    fwd_rcpt (ru :: rs) r = if hits ru r then fst (subn ru r) else fwd_rcpt rs r.
  Proof. intros. cbn [Policy.fwd_rcpt]. unfold hits. destruct (subn ru r). reflexivity. Qed.

  Lemma fwd_skip : forall pre post r,
    Forall (fun q => hits q r = false) pre -> fwd_rcpt (pre ++ post) r = fwd_rcpt post r.
  Proof. induction 1 as [|q pre Hq _ IH]; [reflexivity|]. cbn [app]. rewrite fwd_cons, Hq. exact IH. Qed.

  Lemma hits_intro : forall ru r nr ch, subn ru r = (nr, ch) -> nr <> [] -> 0 < ch -> hits ru r = true.
  Proof.
    intros ru r nr ch Hs Hr Hc. unfold hits. rewrite Hs. destruct nr; [congruence|]. apply N.ltb_lt. exact Hc.
  Qed.

  Lemma forward_apply : forall rules n e,
    apply (PForward rules) n e = (set_rcpts e (map (fwd_rcpt rules) (rcpts e)) (rid e), None, n).
  Proof. reflexivity. Qed.

  Lemma self_is_noop_at_head : forall chain n0 e,
    run_policies (PSelf :: chain) n0 e = run_policies chain n0 e.
  Proof.
    intros. unfold Policy.run_policies. cbn [Policy.recurse results find_eid]. rewrite N.eqb_refl.
    cbn [Policy.apply fold_left results next failed remove_eid]. rewrite N.eqb_refl. reflexivity.
  Qed.

  Lemma keepsplit_returns_input : forall n e r1 r2 rest,
    rcpts e = r1 :: r2 :: rest ->
    exists e' l n', apply PKeepSplit n e = (e', Some l, n') /\ In e' l /\ eid e' = eid e /\ rcpts e' = [r1].
  Proof.
    intros n e r1 r2 rest ER. cbn [Policy.apply]. rewrite ER.
    destruct (copies (n + 1) (set_rcpts e [r1] n) (map (fun r => [r]) (r2 :: rest))) as [cs n2].
    eexists _, _, _. split; [reflexivity|]. split; [left; reflexivity|]. split; reflexivity.
  Qed.

  Notation run_messages := (run_messages rule subn lower date_of mid_of recv_of).
  Notation run_configured := (run_configured rule subn lower date_of mid_of recv_of).

  Lemma messages_as_configured : forall chain ms n,
    run_messages chain n ms = run_configured n (map (fun m => (chain, m)) ms).
  Proof.
    induction ms as [|m ms IH]; intros n; cbn [Policy.run_messages Policy.run_configured map]; [reflexivity|].
    rewrite IH. reflexivity.
  Qed.

  Lemma configured_each : forall P : list policy * msg -> st -> Prop,
    (forall chain m n, P (chain, m) (run_policies chain (n + 4) (mk_input n m))) ->
    forall cms n, Forall2 P cms (run_configured n cms).
  Proof.
    intros P H. induction cms as [|[chain m] cms IH]; intros n; cbn [Policy.run_configured]; constructor; auto.
  Qed.

  Lemma configured_fresh : forall cms n,
    exists hi, fresh n hi (flat_map ids (flat_map results (run_configured n cms))).
  Proof.
    induction cms as [|[chain m] cms IH]; intros n; cbn [Policy.run_configured flat_map].
    - exists n. split; [lia|]. split; constructor.
    - destruct (run_ok n chain (n + 4) (mk_input n m) (fresh_block n)) as ((_ & F) & _).
      destruct (IH (next (run_policies chain (n + 4) (mk_input n m)))) as [hi Fr].
      exists hi. rewrite flat_map_app. exact (fresh_app _ _ _ _ _ F Fr).
  Qed.

  Lemma configured_nodup : forall cms n, NoDup (flat_map ids (flat_map results (run_configured n cms))).
  Proof. intros cms n. destruct (configured_fresh cms n) as (hi & _ & Hn & _). exact Hn. Qed.

End PolicyFacts.

Section Stateless.
  Variable rule : Type.
  Variable subn : rule -> bytes -> bytes * N.
  Variable lower : bytes -> bytes.
  Variable date_of mid_of recv_of : env -> bytes.
  (* the generated header texts depend on what the envelope contains, not on which objects hold it *)
  Hypothesis Hdate : forall d e, date_of (shift_env d e) = date_of e.
  Hypothesis Hmid : forall d e, mid_of (shift_env d e) = mid_of e.
  Hypothesis Hrecv : forall d e, recv_of (shift_env d e) = recv_of e.

  Notation apply := (apply rule subn lower date_of mid_of recv_of).
  Notation recurse := (recurse rule subn lower date_of mid_of recv_of).
  Notation run_policies := (run_policies rule subn lower date_of mid_of recv_of).
  Notation run_messages := (run_messages rule subn lower date_of mid_of recv_of).

  Lemma eqb_shift : forall a b d, (a + d =? b + d) = (a =? b).
  Proof. intros. destruct (N.eqb_spec a b), (N.eqb_spec (a + d) (b + d)); try reflexivity; lia. Qed.

  Lemma shift_set_rcpts : forall d e rs r, set_rcpts (shift_env d e) rs (r + d) = shift_env d (set_rcpts e rs r).
  Proof. reflexivity. Qed.
  Lemma shift_set_hdr : forall d e h, set_hdr (shift_env d e) h = shift_env d (set_hdr e h).
  Proof. reflexivity. Qed.

  Lemma copies_shift : forall d e gs n,
    copies (n + d) (shift_env d e) gs = (map (shift_env d) (fst (copies n e gs)), snd (copies n e gs) + d).
  Proof.
    intros d e. induction gs as [|g gs IH]; intros n; cbn [copies]; [reflexivity|].
    unfold copy. replace (n + d + 4) with (n + 4 + d) by lia. rewrite IH.
    destruct (copies (n + 4) e gs) as [cs n2]. cbn [fst snd map]. f_equal. f_equal.
    unfold shift_env. cbn [eid rid hid cid sender rcpts hdr body]. f_equal; lia.
  Qed.

  Lemma apply_shift : forall p d n e,
    apply p (n + d) (shift_env d e)
    = let '(e', ret, n') := apply p n e in (shift_env d e', option_map (map (shift_env d)) ret, n' + d).
  Proof.
    intros p d n e. destruct p; cbn [Policy.apply];
      change (rcpts (shift_env d e)) with (rcpts e); change (hdr (shift_env d e)) with (hdr e).
    - (* RecipientSplit *)
      destruct (rcpts e) as [|r1 [|r2 rs]]; [reflexivity|reflexivity|].
      rewrite copies_shift. destruct (copies n e _) as [cs n2]. reflexivity.
    - (* RecipientDomainSplit *)
      destruct (domain_groups lower (rcpts e) [] []) as [g bad].
      destruct (N.of_nat (length g) + N.of_nat (length bad) <=? 1); [reflexivity|].
      rewrite copies_shift. destruct (copies n e _) as [cs n2]. reflexivity.
    - reflexivity.
    - rewrite Hdate. destruct (has_header n_date (hdr e)); reflexivity.
    - rewrite Hmid. destruct (has_header n_mid (hdr e)); reflexivity.
    - rewrite Hrecv. reflexivity.
    - reflexivity.
    - (* KeepSplit *)
      destruct (rcpts e) as [|r1 [|r2 rs]]; [reflexivity|reflexivity|].
      rewrite shift_set_rcpts. replace (n + d + 1) with (n + 1 + d) by lia. rewrite copies_shift.
      destruct (copies (n + 1) (set_rcpts e [r1] n) _) as [cs n2]. reflexivity.
  Qed.

  Lemma find_eid_shift : forall d i l,
    find_eid (i + d) (map (shift_env d) l) = option_map (shift_env d) (find_eid i l).
  Proof.
    intros d i. induction l as [|x l IH]; cbn [map find_eid]; [reflexivity|].
    change (eid (shift_env d x)) with (eid x + d). rewrite eqb_shift. destruct (eid x =? i); [reflexivity|exact IH].
  Qed.

  Lemma remove_eid_shift : forall d i l,
    remove_eid (i + d) (map (shift_env d) l) = map (shift_env d) (remove_eid i l).
  Proof.
    intros d i. induction l as [|x l IH]; cbn [map remove_eid]; [reflexivity|].
    change (eid (shift_env d x)) with (eid x + d). rewrite eqb_shift. destruct (eid x =? i); [reflexivity|].
    cbn [map]. rewrite IH. reflexivity.
  Qed.

  Lemma replace_eid_shift : forall d e' l,
    replace_eid (shift_env d e') (map (shift_env d) l) = map (shift_env d) (replace_eid e' l).
  Proof.
    intros d e' l. unfold replace_eid. rewrite !map_map. apply map_ext. intros x.
    change (eid (shift_env d x)) with (eid x + d). change (eid (shift_env d e')) with (eid e' + d).
    rewrite eqb_shift. destruct (eid x =? eid e'); reflexivity.
  Qed.

  Lemma recurse_shift : forall d chain cur s,
    recurse chain (cur + d) (shift_st d s) = shift_st d (recurse chain cur s).
  Proof.
    intros d. induction chain as [|p chain IH]; intros cur s; cbn [Policy.recurse]; [reflexivity|].
    change (next (shift_st d s)) with (next s + d). change (results (shift_st d s)) with (map (shift_env d) (results s)).
    change (failed (shift_st d s)) with (failed s). rewrite find_eid_shift.
    destruct (find_eid cur (results s)) as [e|]; cbn [option_map]; [|reflexivity].
    rewrite apply_shift. destruct (apply p (next s) e) as [[e' ret] n'].
    assert (FOLD : forall l s1,
      fold_left (fun s0 x => recurse chain (eid x) s0) (map (shift_env d) l) (shift_st d s1)
      = shift_st d (fold_left (fun s0 x => recurse chain (eid x) s0) l s1)).
    { induction l as [|x l IHl]; intros s1; cbn [map fold_left]; [reflexivity|].
      change (eid (shift_env d x)) with (eid x + d). rewrite IH. apply IHl. }
    destruct ret as [[|y l]|]; cbn [option_map map].
    - rewrite replace_eid_shift. exact (IH cur (mkst (replace_eid e' (results s)) n' (failed s))).
    - rewrite remove_eid_shift.
      change (shift_env d y :: map (shift_env d) l) with (map (shift_env d) (y :: l)).
      rewrite <- map_app.
      exact (FOLD (y :: l) (mkst (remove_eid cur (results s) ++ y :: l) n' (failed s))).
    - rewrite replace_eid_shift. exact (IH cur (mkst (replace_eid e' (results s)) n' (failed s))).
  Qed.

  Lemma run_shift : forall d chain n0 e,
    run_policies chain (n0 + d) (shift_env d e) = shift_st d (run_policies chain n0 e).
  Proof.
    intros. unfold Policy.run_policies. change (eid (shift_env d e)) with (eid e + d).
    exact (recurse_shift d chain (eid e) (mkst [e] n0 false)).
  Qed.

  Lemma outcome_shift : forall d s, outcome (shift_st d s) = outcome s.
  Proof.
    intros d s. unfold outcome, Policy.shift_st. cbn [failed results]. f_equal. rewrite map_map. apply map_ext. reflexivity.
  Qed.

  Lemma mk_input_shift : forall n m, mk_input n m = shift_env n (mk_input 0 m).
  Proof. intros. unfold mk_input, shift_env. cbn [eid rid hid cid sender rcpts hdr body]. f_equal; lia. Qed.

  Notation run_configured := (run_configured rule subn lower date_of mid_of recv_of).

  Lemma stateless_configured : forall cms n,
    map outcome (run_configured n cms)
    = map (fun cm => outcome (run_policies (fst cm) 4 (mk_input 0 (snd cm)))) cms.
  Proof.
    induction cms as [|[chain m] cms IH]; intros n; cbn [Policy.run_configured map fst snd]; [reflexivity|].
    rewrite IH. f_equal. rewrite mk_input_shift. replace (n + 4) with (4 + n) by lia.
    rewrite run_shift. apply outcome_shift.
  Qed.

  Lemma stateless : forall chain ms n,
    map (outcome) (run_messages chain n ms)
    = map (fun m => outcome (run_policies chain 4 (mk_input 0 m))) ms.
  Proof.
    intros. rewrite messages_as_configured, stateless_configured, map_map. reflexivity.
  Qed.
End Stateless.

(* The hypotheses are satisfiable: a concrete envelope, a toy subn. *)

(* rule = (exact address, replacement): subn replaces a recipient equal to the first component *)
Definition toy_subn (ru : bytes * bytes) (r : bytes) : bytes * N :=
  if beqb (fst ru) r then (snd ru, 1) else (r, 0).
Definition toy_lower (d : bytes) : bytes := map to_lower d.
Definition toy_val (_ : env) : bytes := [63].

(* recipients a@X, b@x, c (no domain), a@X (duplicate); one Date header *)
Definition ex_env : env :=
  mkenv 0 [115] [[97;64;88]; [98;64;120]; [99]; [97;64;88]] 1 [([100;65;84;69], [49])] 2 3 [104;105].

Example ex_fresh : fresh_input ex_env 4.
Proof. exact (fresh_is_input 0 ex_env 4 (fresh_block 0)). Qed.

Example ex_hits : hits _ toy_subn ([99], [99;64;121]) [99] = true.
Proof. reflexivity. Qed.

Example ex_run :
  let chain := [PDomainSplit; PForward [([99], [99;64;121])]; PReceived; PSplit; PDate; PMid] in
  let s := run_policies _ toy_subn toy_lower toy_val toy_val toy_val chain 4 ex_env in
  map rcpts (results s) = [[[99;64;121]]; [[97;64;88]]; [[98;64;120]]; [[97;64;88]]]
  /\ map (fun x => map fst (hdr x)) (results s)
     = repeat [n_received; [100;65;84;69]; n_mid] 4
  /\ failed s = false.
Proof. vm_compute. repeat split. Qed.

(* a matching identity rule in front of a catch-all: c -> c, then c -> c@y; the catch-all alone rewrites *)
Example ex_identity_stops :
  toy_subn ([99], [99]) [99] = ([99], 1)
  /\ fwd_rcpt _ toy_subn [([99], [99]); ([99], [99;64;121])] [99] = [99]
  /\ fwd_rcpt _ toy_subn [([99], [99;64;121])] [99] = [99;64;121].
Proof. vm_compute. repeat split. Qed.

(* an EMPTY "DATE" field below another field, an empty "message-id": present, nothing is added anywhere *)
Definition ex_env_empty : env :=
  mkenv 0 [115] [[97;64;88]; [98;64;120]] 1 [([83], [120]); ([68;65;84;69], []); ([109;101;115;115;97;103;101;45;105;100], [])] 2 3 [104;105].
Example ex_empty_present :
  ieq [68;65;84;69] n_date = true /\ ieq [109;101;115;115;97;103;101;45;105;100] n_mid = true
  /\ has_header n_date (hdr ex_env_empty) = true /\ has_header n_mid (hdr ex_env_empty) = true
  /\ let s := run_policies _ toy_subn toy_lower toy_val toy_val toy_val [PDate; PSplit; PMid; PReceived; PDate; PMid] 4 ex_env_empty in
     map (fun x => map fst (hdr x)) (results s)
     = repeat [n_received; [83]; [68;65;84;69]; [109;101;115;115;97;103;101;45;105;100]] 2.
Proof. vm_compute. repeat split. Qed.

(* a message with Return-Path above its Received field and a lower-case received further down; Received twice
   in the chain: both new fields in front of everything, the original block untouched behind them *)
Definition ex_env_trace : env :=
  mkenv 0 [115] [[97;64;88]; [98;64;120]] 1
        [([82;101;116;117;114;110;45;80;97;116;104], [60;62]); (n_received, [49]); ([83], [120]); ([114;101;99;101;105;118;101;100], [50])] 2 3 [104;105].
Example ex_received_first :
  let s := run_policies _ toy_subn toy_lower toy_val toy_val toy_val [PReceived; PSplit; PDate; PReceived; PMid] 4 ex_env_trace in
  map (fun x => map fst (hdr x)) (results s)
  = repeat [n_received; n_received; [82;101;116;117;114;110;45;80;97;116;104]; n_received; [83]; [114;101;99;101;105;118;101;100]; n_date; n_mid] 2.
Proof. vm_compute. repeat split. Qed.

(* the same two-domain message three times through one chain with a split and a Forward behind it:
   three times the same outcome, 3 x (1 input + 2 copies) x 4 objects all different *)
Example ex_messages :
  let chain := [PDomainSplit; PForward [([99], [99;64;121])]; PReceived] in
  let m := mkmsg [115] [[97;64;88]; [98;64;120]; [99]] [] [104;105] in
  let ss := run_messages _ toy_subn toy_lower toy_val toy_val toy_val chain 0 [m; m; m] in
  map outcome ss = repeat (false, [([115], [[97;64;88]; [98;64;120]], [(n_received, [63])], [104;105]);
                                        ([115], [[99;64;121]], [(n_received, [63])], [104;105])]) 3
  /\ length (flat_map ids (flat_map results ss)) = 24%nat
  /\ (forall d e, toy_val (shift_env d e) = toy_val e).
Proof. vm_compute. repeat split. Qed.

(* a rule added between two messages is in force for the second: c is left alone, then c -> c@y *)
Example ex_configured :
  let m := mkmsg [115] [[97;64;88]; [99]] [] [104;105] in
  let ss := run_configured _ toy_subn toy_lower toy_val toy_val toy_val 0
              [([PForward []; PSplit], m); ([PForward [([99], [99;64;121])]; PSplit], m)] in
  map (fun s => map rcpts (results s)) ss = [[[[97;64;88]]; [[99]]]; [[[97;64;88]]; [[99;64;121]]]].
Proof. vm_compute. reflexivity. Qed.
