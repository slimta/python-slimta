(* Never early: a delivery attempt caused by the timetable starts at a clock value at or
   after the due time of the entry that caused it ([Einv], [Einv_never_early]).  Where that due time comes
   from is the last lemma: a retry with backoff w is due w after the clock value at which it was decided. *)
From Coq Require Import List NArith.
From SV Require Import model.Queue proof.List_lemmas proof.Queue_base.
Import ListNotations.
Open Scope N_scope.

Definition timely (now : time) (t : task) : Prop :=
  match t with TDequeue _ (CTimer due) => due <= now | _ => True end.
Definition on_time (a : att) : Prop :=
  match a_cause a with CTimer due => due <= a_now a | _ => True end.

Definition Einv (s : state) : Prop :=
  Forall (timely (s_clock s)) (s_tasks s) /\ Forall on_time (g_atts s).

Lemma E_swap : forall now l1 t l2 nt, Forall (timely now) (l1 ++ t :: l2) -> Forall (timely now) nt ->
  Forall (timely now) ((l1 ++ l2) ++ nt).
Proof. intros now l1 t l2 nt H Hnt. apply Forall_app. split; [exact (Forall_drop _ _ _ _ H)|exact Hnt]. Qed.

Lemma Einv_dispatch : forall s i c, Einv s -> timely (s_clock s) (TDequeue i c) -> Einv (dispatch s i c).
Proof.
  intros s i c [Ht Ha] Hc. destruct (dispatchP s i c) as [_|_]; [split; assumption|].
  split; [apply Forall_app; split; [exact Ht|repeat constructor; exact Hc]|exact Ha].
Qed.

Lemma step_E : forall s e, Einv s -> Einv (step s e).
Proof.
  intros s e H. pose proof H as [Ht Ha]. destruct e; rewrite ?step_flush; cbn [step].
  - (* EWrite *) split; [apply Forall_app; split; [exact Ht|repeat constructor]|exact Ha].
  - (* EEnqDone *)
    destruct (take_taskP (is_enq i) (s_tasks s)) as [|l1 t l2 E1 Hp]; [exact H|]. rewrite E1 in Ht.
    destruct t; try discriminate Hp. proj. destruct (mem i (s_active s)); (split; [|repeat constructor; exact Ha]).
    + exact (Forall_drop _ _ _ _ Ht).
    + apply (E_swap _ _ _ _ _ Ht). repeat constructor.
  - (* ERelay *)
    destruct (take_taskP (is_attempt i) (s_tasks s)) as [|l1 t l2 E1 Hp]; [exact H|]. rewrite E1 in Ht.
    destruct t; try discriminate Hp.
    destruct o; [| | | |destruct (pick is_temp rcpts res)]; (split; [|exact Ha]);
      apply (E_swap _ _ _ _ _ Ht); repeat constructor.
  - (* EStep *)
    destruct (take_taskP (is_retry i) (s_tasks s)) as [|l1 t l2 E1 Hp]; [exact H|]. rewrite E1 in Ht.
    pose proof (Forall_drop _ _ _ _ Ht) as Hd.
    destruct (st_get (s_store s) i); [|split; assumption].
    destruct t as [| |? ? ? ? |? ? [[]|] ?|? ? ? ?| | |]; try discriminate Hp.
    + destruct b; (split; [|exact Ha]); apply (E_swap _ _ _ _ _ Ht); repeat constructor.
    + split; [|exact Ha]. apply (E_swap _ _ _ _ _ Ht); repeat constructor.
    + split; rewrite ?aq_clock, ?aq_tasks, ?aq_atts; assumption.
    + split; rewrite ?aq_clock, ?aq_tasks, ?aq_atts; assumption.
  - (* EGet: the attempt starts now, and the read was timely *)
    destruct (take_taskP (is_dequeue i) (s_tasks s)) as [|l1 t l2 E1 Hp]; [exact H|]. rewrite E1 in Ht.
    destruct t; try discriminate Hp.
    destruct (st_get (s_store s) i); [|split; [exact (Forall_drop _ _ _ _ Ht)|exact Ha]].
    split; [apply (E_swap _ _ _ _ _ Ht); repeat constructor|].
    constructor; [exact (Forall_elt _ _ _ Ht)|exact Ha].
  - (* ERemove *)
    destruct (take_taskP (is_rm i) (s_tasks s)) as [|l1 t l2 E1 Hp]; [exact H|]. rewrite E1 in Ht.
    split; [exact (Forall_drop _ _ _ _ Ht)|exact Ha].
  - (* ETick: every entry of the due prefix is due *)
    apply (tick_inv Einv s H); [intros s' sc Hs'; exact Hs'|]. intros d r _ Hdue.
    apply (dispatch_all_pres (fun s' => Einv s' /\ s_clock s' = s_clock s) (fun e => CTimer (fst e)) d); [|split; [exact H|reflexivity]].
    intros s' x Hx [H' Hc]. rewrite dispatch_clock. split; [|exact Hc].
    apply Einv_dispatch; [exact H'|]. cbn. rewrite Hc. exact (Hdue x Hx).
  - (* EWakeup *) exact (wakeup_inv Einv s H H).
  - (* EAdvance: the clock only moves forward *)
    split; [|exact Ha]. refine (Forall_impl _ _ Ht). intros [] Hx; try exact I. destruct c; try exact I.
    exact (N.le_trans _ _ _ Hx (N.le_add_r _ _)).
  - (* EAnnounce *) split; rewrite ?aq_clock, ?aq_tasks, ?aq_atts; assumption.
  - (* EFlush *)
    exact (dispatch_all_pres Einv (fun _ => CFlush) _ (fun s' e _ H' => Einv_dispatch s' (snd e) CFlush H' I) (set_sched s _ false) H).
Qed.

Lemma init_E : Einv init.
Proof. split; constructor. Qed.

Lemma reach_E : forall es, Einv (run es init).
Proof. intro es. exact (run_inv Einv step_E es init init_E). Qed.

Lemma Einv_never_early : forall s a due, Einv s -> In a (g_atts s) -> a_cause a = CTimer due -> due <= a_now a.
Proof. intros s a due [_ Ha] Hin Hc. apply (proj1 (Forall_forall _ _) Ha) in Hin. unfold on_time in Hin. rewrite Hc in Hin. exact Hin. Qed.

Lemma retry_backoff_step : forall s i snd rcpts dl w rest,
  take_task (is_retry i) (s_tasks s) = Some (TRetry1 i snd rcpts dl, rest) -> st_get (s_store s) i <> None ->
  s_tasks (step s (EStep i (Some w))) = rest ++ [TRetry2 i rcpts dl (s_clock s + w)].
Proof. intros s i snd rcpts dl w rest T Hst. cbn [step]. rewrite T. destruct (st_get (s_store s) i); [reflexivity|contradiction]. Qed.
