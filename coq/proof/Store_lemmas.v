(* C15: every backend model simulates the reference store (`simulates`: an
   abstraction relation kept by each well-formed operation, with matching
   results) - dict, dict over copying mappings, redis, cloud, disk; then, for
   the yielding backends, the frame property under every interleaving
   (`frame_interleaved`, `frame_interleaved_disk`) and read-only load/get. *)
From Coq Require Import List NArith Bool Lia Permutation.
From SV Require Import model.Store.
From SV Require Import proof.List_lemmas proof.Assoc_lemmas proof.Rounds_lemmas proof.Prog_lemmas proof.Disk_lemmas.
Import ListNotations.
Open Scope N_scope.

Section NMaps.
  Variable V : Type.
  Implicit Types m : amap N V.
  (* the lookup equations of proof/Assoc_lemmas.v at key type N *)
  Lemma nget_set m k v j : alookup N.eqb (aset N.eqb m k v) j = if N.eqb k j then Some v else alookup N.eqb m j.
  Proof. apply (lookup_set N V N.eqb N.eqb_eq). Qed.
  Lemma nget_del m k j : alookup N.eqb (adel N.eqb m k) j = if N.eqb k j then None else alookup N.eqb m j.
  Proof. apply (lookup_del N V N.eqb N.eqb_eq). Qed.
  Lemma nget_set_same m k v : alookup N.eqb (aset N.eqb m k v) k = Some v.
  Proof. apply (lookup_set_same N V N.eqb N.eqb_eq). Qed.
  Lemma nget_set_other m k v j : k <> j -> alookup N.eqb (aset N.eqb m k v) j = alookup N.eqb m j.
  Proof. apply (lookup_set_other N V N.eqb N.eqb_eq). Qed.
  Lemma nget_del_same m k : alookup N.eqb (adel N.eqb m k) k = None.
  Proof. apply (lookup_del_same N V N.eqb). Qed.
  Lemma nget_del_other m k j : k <> j -> alookup N.eqb (adel N.eqb m k) j = alookup N.eqb m j.
  Proof. apply (lookup_del_other N V N.eqb N.eqb_eq). Qed.
  (* a map that already binds k to v is, for lookups, the map with that binding set *)
  Lemma nget_set_id m k v j : alookup N.eqb m k = Some v -> alookup N.eqb m j = if N.eqb k j then Some v else alookup N.eqb m j.
  Proof. intros E. destruct (N.eqb_spec k j) as [<-|_]; [exact E|reflexivity]. Qed.
  Lemma nnodup_set m k v : NoDup (akeys m) -> NoDup (akeys (aset N.eqb m k v)).
  Proof. apply (nodup_set N V N.eqb N.eqb_eq). Qed.
  Lemma nnodup_del m k : NoDup (akeys m) -> NoDup (akeys (adel N.eqb m k)).
  Proof. apply (nodup_del N V N.eqb). Qed.
  Lemma nmem_get m k : amem N.eqb m k = match alookup N.eqb m k with Some _ => true | None => false end.
  Proof. reflexivity. Qed.
  Lemma nget_keys m k : alookup N.eqb m k <> None <-> In k (akeys m).
  Proof. apply (lookup_in_keys N V N.eqb N.eqb_eq). Qed.
End NMaps.

Lemma perm_by_ids (l1 l2 : list (N * N)) :
  NoDup (map snd l1) -> NoDup (map snd l2) -> (forall ts id, In (ts, id) l1 <-> In (ts, id) l2) ->
  Permutation l1 l2.
Proof.
  intros N1 N2 H. apply NoDup_Permutation; [exact (NoDup_map_inv _ _ N1)|exact (NoDup_map_inv _ _ N2)|].
  intros [ts id]. apply H.
Qed.

Lemma listing_ids {V} (m : amap N V) (t : V -> N) : map snd (map (fun p => (t (snd p), fst p)) m) = akeys m.
Proof. apply map_map. Qed.

Lemma listing_In {V} (m : amap N V) (t : V -> N) ts id :
  NoDup (akeys m) ->
  In (ts, id) (map (fun p => (t (snd p), fst p)) m) <-> exists v, alookup N.eqb m id = Some v /\ t v = ts.
Proof.
  intros Hn. rewrite in_map_iff. split.
  - intros ([k v] & E & Hin). cbn [fst snd] in E. inversion E; subst.
    exists v. split; [apply (In_lookup_nodup N V N.eqb N.eqb_eq); assumption|reflexivity].
  - intros (v & E & Hts). exists (id, v). split; [cbn [fst snd]; congruence|apply (lookup_In N V N.eqb N.eqb_eq), E].
Qed.

Lemma load_perm {V1 V2} (m1 : amap N V1) (m2 : amap N V2) (t1 : V1 -> N) (t2 : V2 -> N) :
  NoDup (akeys m1) -> NoDup (akeys m2) ->
  (forall id, option_map t1 (alookup N.eqb m1 id) = option_map t2 (alookup N.eqb m2 id)) ->
  Permutation (map (fun p => (t1 (snd p), fst p)) m1) (map (fun p => (t2 (snd p), fst p)) m2).
Proof.
  intros N1 N2 H. apply perm_by_ids; rewrite ?listing_ids; try assumption.
  intros ts id. rewrite !listing_In by assumption. specialize (H id).
  destruct (alookup N.eqb m1 id) as [v1|]; destruct (alookup N.eqb m2 id) as [v2|]; try discriminate;
    cbn [option_map] in H; split; intros (v & E & Hv); inversion E; subst; eexists; split; try reflexivity; congruence.
Qed.

(* load() order is backend specific: compared as multisets *)
Definition res_match (x y : res) : Prop :=
  match x, y with
  | RLoad a, RLoad b => Permutation a b
  | _, _ => x = y
  end.

Lemma res_match_eq x : res_match x x.
Proof. destruct x; cbn; reflexivity. Qed.

Lemma res_match_of_eq x y : x = y -> res_match x y.
Proof. intros ->. apply res_match_eq. Qed.

Lemma first_free_split r cands id :
  first_free r cands = Some id ->
  exists pre post, cands = pre ++ id :: post /\ (forall c, In c pre -> rlookup r c <> None) /\ rlookup r id = None.
Proof.
  induction cands as [|c cs IH]; cbn [first_free]; [discriminate|].
  destruct (rlookup r c) eqn:E.
  - intros H. destruct (IH H) as (pre & post & -> & Hp & Hi).
    exists (c :: pre), post. split; [reflexivity|]. split; [|exact Hi].
    intros c' [<-|Hc']; [congruence|apply Hp; exact Hc'].
  - intros H; inversion H; subst. exists [], cs. split; [reflexivity|]. split; [intros c' []|exact E].
Qed.

Lemma first_free_spec r cands id :
  first_free r cands = Some id -> rlookup r id = None /\ In id cands.
Proof.
  intros H. destruct (first_free_split r cands id H) as (pre & post & -> & _ & Hi). split; [exact Hi|apply in_elt].
Qed.

Lemma first_free_none r cands : first_free r cands = None -> forall c, In c cands -> rlookup r c <> None.
Proof.
  induction cands as [|c cs IH]; cbn [first_free]; [intros _ c []|].
  destruct (rlookup r c) eqn:E; [|discriminate].
  intros H c' [<-|Hc']; [congruence|apply IH; assumption].
Qed.

Lemma with_rcpts_same e : with_rcpts e (e_rcpts e) = e.
Proof. destruct e; reflexivity. Qed.
Lemma with_rcpts_twice e l l' : with_rcpts (with_rcpts e l) l' = with_rcpts e l'.
Proof. reflexivity. Qed.

Definition ref_ok (r : rstore) : Prop := NoDup (akeys r).

Definition ref_target (r : rstore) (o : op) : option N :=
  match o with
  | OWrite _ _ cands _ => first_free r cands
  | _ => op_id o
  end.

Lemma ref_target_dec r o id : {ref_target r o = Some id} + {ref_target r o <> Some id}.
Proof.
  destruct (ref_target r o) as [j|]; [|right; discriminate].
  destruct (N.eq_dec j id) as [->|]; [left; reflexivity|right; congruence].
Qed.

Lemma ref_step_shape r o :
  fst (ref_step r o) = r \/
  exists id, ref_target r o = Some id /\
             (fst (ref_step r o) = adel N.eqb r id \/ exists en, fst (ref_step r o) = aset N.eqb r id en).
Proof.
  destruct o; cbn [ref_step ref_target op_id].
  - destruct (first_free r cands) as [id|]; cbn [fst]; eauto 6.
  - destruct (rlookup r id); cbn [fst]; eauto 6.
  - destruct (rlookup r id); cbn [fst]; eauto 6.
  - destruct (rlookup r id) as [en|]; [destruct (round idxs (e_rcpts (en_env en)))|]; cbn [fst]; eauto 6.
  - eauto.
  - destruct (rlookup r id); eauto.
  - cbn [fst]. eauto 6.
Qed.

Lemma ref_step_ok r o : ref_ok r -> ref_ok (fst (ref_step r o)).
Proof.
  intros H. destruct (ref_step_shape r o) as [->|(id & _ & [->|(en & ->)])];
    [exact H|apply nnodup_del, H|apply nnodup_set, H].
Qed.

Lemma ref_step_frame r o j :
  ref_target r o <> Some j -> rlookup (fst (ref_step r o)) j = rlookup r j.
Proof.
  intros Hj. destruct (ref_step_shape r o) as [->|(id & T & [->|(en & ->)])];
    [reflexivity|apply nget_del_other; congruence|apply nget_set_other; congruence].
Qed.

Lemma ref_write_fresh r e ts cands tmps r' id :
  ref_step r (OWrite e ts cands tmps) = (r', RId id) ->
  rlookup r id = None /\ In id cands /\ rlookup r' id = Some (mkEntry e ts 0).
Proof.
  cbn [ref_step]. destruct (first_free r cands) as [c|] eqn:E; [|discriminate].
  intros H; inversion H; subst. destruct (first_free_spec r cands id E) as [H1 H2].
  repeat split; [exact H1|exact H2|apply nget_set_same].
Qed.

Definition writes_avoid (id : N) (o : op) : Prop :=
  match o with OWrite _ _ cands _ => ~ In id cands | _ => True end.

Lemma ref_step_dead r id o :
  rlookup r id = None -> writes_avoid id o -> rlookup (fst (ref_step r o)) id = None.
Proof.
  intros Hr Ho.
  destruct (ref_target_dec r o id) as [T|T]; [|rewrite ref_step_frame by exact T; exact Hr].
  destruct o; cbn [ref_target op_id writes_avoid] in *; try discriminate;
    [destruct (first_free_spec _ _ _ T) as [_ Hin]; contradiction|inversion T; subst id0; cbn [ref_step]; rewrite ?Hr; try exact Hr..].
  cbn [fst]. apply nget_del_same.
Qed.

Lemma ref_run_dead r id ops :
  rlookup r id = None -> Forall (writes_avoid id) ops -> rlookup (fst (ref_run r ops)) id = None.
Proof.
  revert r; induction ops as [|o ops IH]; intros r Hr Hops; cbn [ref_run]; [exact Hr|].
  inversion Hops as [|? ? Ho Hops']; subst. pose proof (ref_step_dead r id o Hr Ho) as H1.
  destruct (ref_step r o) as [r1 x]. specialize (IH r1 H1 Hops'). destruct (ref_run r1 ops). exact IH.
Qed.

Example wf_ops_example :
  wf_ops [] [OWrite (mkEnv [1] [[2]; [3]; [4]] [5]) 10 [7; 8] [1; 2]; OWrite (mkEnv [] [[2]] []) 11 [7; 8] [3; 4];
             OIncr 7 [5]; ODeliv 7 [2; 0] [6]; OSetTs 8 12 [7]; OLoad 0; OGet 7; ORemove 7; OGet 7] = true /\
  snd (ref_run [] [OWrite (mkEnv [1] [[2]; [3]; [4]] [5]) 10 [7; 8] [1; 2]; OWrite (mkEnv [] [[2]] []) 11 [7; 8] [3; 4];
             OIncr 7 [5]; ODeliv 7 [2; 0] [6]; OSetTs 8 12 [7]; OLoad 0; OGet 7; ORemove 7; OGet 7]) =
  [RId 7; RId 8; RAtt 1; RUnit; RUnit; RLoad [(12, 8); (10, 7)]; RGot (mkEnv [1] [[3]] [5]) 1; RUnit; RMissing].
Proof. split; vm_compute; reflexivity. Qed.

Lemma ref_run_app r a b :
  ref_run r (a ++ b) =
  let (r1, xs) := ref_run r a in let (r2, ys) := ref_run r1 b in (r2, xs ++ ys).
Proof.
  revert r; induction a as [|o a IH]; intros r; cbn [app ref_run].
  - destruct (ref_run r b); reflexivity.
  - destruct (ref_step r o) as [r1 x]. rewrite IH.
    destruct (ref_run r1 a) as [r2 xs]. destruct (ref_run r2 b) as [r3 ys]. reflexivity.
Qed.

(* disk, redis and cloud keep the original envelope and the deletion script *)
Definition accum_entry (e : envelope) (ts att : N) (sc : list N) : option entry :=
  match accum_get sc (e_rcpts e) with
  | Some l => Some (mkEntry (with_rcpts e l) ts att)
  | None => None
  end.

Lemma accum_entry_new e ts : accum_entry e ts 0 [] = Some (mkEntry e ts 0).
Proof. unfold accum_entry, accum_get. rewrite replay_nil, with_rcpts_same. reflexivity. Qed.

Lemma accum_entry_fields e ts att sc en :
  accum_entry e ts att sc = Some en -> en_ts en = ts /\ en_att en = att.
Proof.
  unfold accum_entry. destruct (accum_get sc (e_rcpts e)); [|discriminate].
  intros H; inversion H; split; reflexivity.
Qed.

Lemma wf_deliv_round r id idxs tmps en :
  wf_op r (ODeliv id idxs tmps) = true -> rlookup r id = Some en ->
  exists l, round idxs (e_rcpts (en_env en)) = Some l.
Proof.
  cbn [wf_op]. intros H E. rewrite E in H. apply andb_prop in H as [H1 H2].
  apply round_ok; assumption.
Qed.

(* set_timestamp, increment_attempts and set_recipients_delivered as functions
   on the fields an accumulating backend stores for a message: the reference
   store does the same to the entry those fields stand for *)
Definition is_update (o : op) : bool :=
  match o with OSetTs _ _ _ | OIncr _ _ | ODeliv _ _ _ => true | _ => false end.
Definition upd_ts (o : op) (ts : N) : N := match o with OSetTs _ ts' _ => ts' | _ => ts end.
Definition upd_att (o : op) (att : N) : N := match o with OIncr _ _ => att + 1 | _ => att end.
Definition upd_sc (o : op) (sc : list N) : list N :=
  match o with ODeliv _ idxs _ => accum_mark sc idxs | _ => sc end.
Definition upd_res (o : op) (att : N) : res := match o with OIncr _ _ => RAtt (att + 1) | _ => RUnit end.

Lemma wf_update_live r o id :
  is_update o = true -> op_id o = Some id -> wf_op r o = true -> exists en, rlookup r id = Some en.
Proof.
  intros Hu Hid Hwf. destruct o; try discriminate Hu; inversion Hid; subst id0; cbn [wf_op] in Hwf;
    (destruct (rlookup r id) as [en|]; [exists en; reflexivity|discriminate]).
Qed.

Lemma accum_step r o id en e ts att sc :
  is_update o = true -> op_id o = Some id -> wf_op r o = true -> rlookup r id = Some en ->
  accum_entry e ts att sc = Some en ->
  exists en', accum_entry e (upd_ts o ts) (upd_att o att) (upd_sc o sc) = Some en' /\
              ref_step r o = (aset N.eqb r id en', upd_res o att).
Proof.
  intros Hu Hid Hwf E Ha. unfold accum_entry in *.
  destruct (accum_get sc (e_rcpts e)) as [cur|] eqn:Ec; [|discriminate]. inversion Ha; subst en; clear Ha.
  destruct o; try discriminate Hu; inversion Hid; subst id0;
    cbn [upd_ts upd_att upd_sc upd_res ref_step]; rewrite E; cbn [en_env en_ts en_att with_rcpts e_rcpts].
  - rewrite Ec. eexists; split; reflexivity.
  - rewrite Ec. eexists; split; reflexivity.
  - destruct (wf_deliv_round r id idxs tmps _ Hwf E) as (l & Hl). cbn [en_env with_rcpts e_rcpts] in Hl.
    rewrite (accum_get_mark sc idxs _ cur Ec), Hl. eexists; split; reflexivity.
Qed.

(* A backend simulates the reference store: its runs are folds of its step
   function, the abstraction relation R fixes what get() shows of every id
   (view) and is kept by every well-formed operation that meets the backend's
   demands `ok` on the environment choices, with matching results. *)
Record simulates {St} (step : St -> op -> St * res) (run : St -> list op -> St * list res)
                 (R : St -> rstore -> Prop) (view : St -> N -> option entry) (ok : op -> Prop) : Prop := {
  sim_nil : forall s, run s [] = (s, []);
  sim_cons : forall s o ops, run s (o :: ops) =
               let (s1, x) := step s o in let (s2, xs) := run s1 ops in (s2, x :: xs);
  sim_view : forall s r id, R s r -> view s id = rlookup r id;
  sim_step : forall s r o, R s r -> wf_op r o = true -> ok o ->
      R (fst (step s o)) (fst (ref_step r o)) /\ res_match (snd (step s o)) (snd (ref_step r o)) }.

Section Simulation.
  Context {St} {step : St -> op -> St * res} {run R view ok} (B : simulates step run R view ok).

  Theorem run_sim ops : forall s r, R s r -> wf_ops r ops = true -> Forall ok ops ->
      R (fst (run s ops)) (fst (ref_run r ops)) /\
      Forall2 res_match (snd (run s ops)) (snd (ref_run r ops)) /\
      forall id, view (fst (run s ops)) id = rlookup (fst (ref_run r ops)) id.
  Proof.
    assert (G : forall s r, R s r -> wf_ops r ops = true -> Forall ok ops ->
                R (fst (run s ops)) (fst (ref_run r ops)) /\
                Forall2 res_match (snd (run s ops)) (snd (ref_run r ops))).
    { induction ops as [|o ops IH]; intros s r HR Hwf Hok; cbn [ref_run].
      - rewrite (sim_nil _ _ _ _ _ B). split; [exact HR|constructor].
      - rewrite (sim_cons _ _ _ _ _ B). cbn [wf_ops] in Hwf. apply andb_prop in Hwf as [Hw1 Hw2].
        inversion Hok as [|? ? Hok1 Hok2]; subst.
        destruct (sim_step _ _ _ _ _ B s r o HR Hw1 Hok1) as [HR1 Hm].
        destruct (step s o) as [s1 x]. destruct (ref_step r o) as [r1 y]. cbn [fst snd] in *.
        destruct (IH s1 r1 HR1 Hw2 Hok2) as [HR2 Hms].
        destruct (run s1 ops) as [s2 xs]. destruct (ref_run r1 ops) as [r2 ys]. cbn [fst snd] in *.
        split; [exact HR2|constructor; assumption]. }
    intros s r HR Hwf Hok. destruct (G s r HR Hwf Hok) as [H1 H2].
    split; [exact H1|]. split; [exact H2|]. intros id. apply (sim_view _ _ _ _ _ B), H1.
  Qed.

  Theorem seq_frame s r o j :
    R s r -> wf_op r o = true -> ok o -> ref_target r o <> Some j ->
    view (fst (step s o)) j = view s j.
  Proof.
    intros HR Hwf Hok Hj. destruct (sim_step _ _ _ _ _ B s r o HR Hwf Hok) as [HR' _].
    rewrite (sim_view _ _ _ _ _ B _ _ j HR'), (sim_view _ _ _ _ _ B _ _ j HR). apply ref_step_frame. exact Hj.
  Qed.
End Simulation.

Record RDict (s : dstate) (r : rstore) : Prop := {
  rd_ref : ref_ok r;
  rd_view : forall id, dict_view s id = rlookup r id;
  rd_meta : forall id, alookup N.eqb (d_meta s) id <> None <-> rlookup r id <> None;
  rd_env : forall id, alookup N.eqb (d_env s) id <> None <-> rlookup r id <> None;
  rd_inj : forall i j x, alookup N.eqb (d_env s) i = Some x -> alookup N.eqb (d_env s) j = Some x -> i = j;
  rd_fresh : forall i x, alookup N.eqb (d_env s) i = Some x -> x < d_next s;
  rd_nodup : NoDup (akeys (d_meta s)) }.

Lemma RDict_init : RDict dict_init [].
Proof.
  split; try (intros; cbn; try reflexivity; try tauto; discriminate); try constructor.
Qed.

Lemma dict_view_some s id m x e :
  alookup N.eqb (d_meta s) id = Some m -> alookup N.eqb (d_env s) id = Some x ->
  alookup N.eqb (d_heap s) x = Some e -> dict_view s id = Some (mkEntry e (dm_ts m) (dm_att m)).
Proof. intros H1 H2 H3. unfold dict_view. rewrite H1, H2, H3. reflexivity. Qed.

Lemma dict_live s r id en :
  RDict s r -> rlookup r id = Some en ->
  exists x, alookup N.eqb (d_meta s) id = Some (mkDMeta (en_ts en) (en_att en)) /\
            alookup N.eqb (d_env s) id = Some x /\ alookup N.eqb (d_heap s) x = Some (en_env en).
Proof.
  intros H E. pose proof (rd_view s r H id) as Hv. rewrite E in Hv. unfold dict_view in Hv.
  destruct (alookup N.eqb (d_meta s) id) as [[ts att]|] eqn:E1; [|discriminate].
  destruct (alookup N.eqb (d_env s) id) as [x|] eqn:E2; [|discriminate].
  destruct (alookup N.eqb (d_heap s) x) as [e|] eqn:E3; [|discriminate].
  inversion Hv; subst. exists x. auto.
Qed.

Lemma dict_dead s r id :
  RDict s r -> rlookup r id = None ->
  alookup N.eqb (d_meta s) id = None /\ alookup N.eqb (d_env s) id = None.
Proof.
  intros H E. split.
  - destruct (alookup N.eqb (d_meta s) id) eqn:E1; [|reflexivity].
    exfalso. apply (proj1 (rd_meta s r H id)); congruence.
  - destruct (alookup N.eqb (d_env s) id) eqn:E1; [|reflexivity].
    exfalso. apply (proj1 (rd_env s r H id)); congruence.
Qed.

Lemma dict_pick_first_free s r cands :
  RDict s r -> dict_pick (d_env s) cands = first_free r cands.
Proof.
  intros H. induction cands as [|c cs IH]; cbn [dict_pick first_free]; [reflexivity|].
  rewrite nmem_get. destruct (rlookup r c) as [en|] eqn:E.
  - destruct (dict_live s r c en H E) as (x & _ & -> & _). exact IH.
  - destruct (dict_dead s r c H E) as [_ ->]. reflexivity.
Qed.

Lemma iff_some_none {A B} (a : option A) (b : option B) :
  (a <> None <-> b <> None) -> forall x, b = Some x -> a <> None.
Proof. intros H x E. apply H. congruence. Qed.

(* Every dict operation that changes anything makes id show the entry (e, m):
   s' is s with id bound to m in d_meta and to the heap cell x in d_env, e
   stored at x and the other cells as they were (stated on lookups, so that
   "already bound" and "newly set" are both instances).  x is the cell of no
   other id, so no other view moves; d_next only grows and stays above every
   cell in use. *)
Lemma RDict_put s s' r id m x e :
  RDict s r -> NoDup (akeys (d_meta s')) ->
  (forall j, alookup N.eqb (d_meta s') j = if N.eqb id j then Some m else alookup N.eqb (d_meta s) j) ->
  (forall j, alookup N.eqb (d_env s') j = if N.eqb id j then Some x else alookup N.eqb (d_env s) j) ->
  alookup N.eqb (d_heap s') x = Some e ->
  (forall y, x <> y -> alookup N.eqb (d_heap s') y = alookup N.eqb (d_heap s) y) ->
  (forall j y, id <> j -> alookup N.eqb (d_env s) j = Some y -> x <> y) ->
  x < d_next s' -> d_next s <= d_next s' ->
  RDict s' (aset N.eqb r id (mkEntry e (dm_ts m) (dm_att m))).
Proof.
  intros H Hn Hm He Hx Hh Hd Hlt Hle. split.
  - apply nnodup_set, (rd_ref s r H).
  - intros j. unfold dict_view, rlookup. rewrite Hm, He, nget_set. destruct (N.eqb_spec id j) as [<-|Hne].
    + rewrite Hx. reflexivity.
    + pose proof (rd_view s r H j) as Hv. unfold dict_view in Hv.
      destruct (alookup N.eqb (d_meta s) j) as [mj|]; [|exact Hv].
      destruct (alookup N.eqb (d_env s) j) as [y|] eqn:Ey; [|exact Hv].
      rewrite (Hh y (Hd j y Hne Ey)). exact Hv.
  - intros j. unfold rlookup. rewrite Hm, nget_set. destruct (N.eqb id j); [split; discriminate|apply (rd_meta s r H j)].
  - intros j. unfold rlookup. rewrite He, nget_set. destruct (N.eqb id j); [split; discriminate|apply (rd_env s r H j)].
  - intros i j y. rewrite !He.
    destruct (N.eqb_spec id i) as [<-|Hi]; destruct (N.eqb_spec id j) as [<-|Hj]; intros E1 E2.
    + reflexivity.
    + inversion E1; subst y. destruct (Hd j x Hj E2 eq_refl).
    + inversion E2; subst y. destruct (Hd i x Hi E1 eq_refl).
    + eapply (rd_inj s r H); eassumption.
  - intros i y. rewrite He. destruct (N.eqb id i); intros E.
    + inversion E; subst y. exact Hlt.
    + pose proof (rd_fresh s r H i y E). lia.
  - exact Hn.
Qed.

Lemma dict_simulates : simulates dict_step dict_run RDict dict_view (fun _ => True).
Proof.
  split; [reflexivity|reflexivity|intros s r id H; apply (rd_view s r H)|]. intros s r o H Hwf _.
  assert (Hlive : forall id x, alookup N.eqb (d_env s) id = Some x ->
            (forall j y, id <> j -> alookup N.eqb (d_env s) j = Some y -> x <> y) /\ x < d_next s).
  { intros id x Hx. split; [|apply (rd_fresh s r H id x Hx)].
    intros j y Hne Ey <-. apply Hne, (rd_inj s r H id j x Hx Ey). }
  destruct o; cbn [dict_step ref_step].
  - (* write *)
    rewrite (dict_pick_first_free s r cands H).
    destruct (first_free r cands) as [id|] eqn:Ef; cbn [fst snd]; [|split; [exact H|reflexivity]].
    split; [|reflexivity].
    apply (RDict_put s _ r id (mkDMeta ts 0) (d_next s) e H); cbn [d_env d_meta d_heap d_next].
    + apply nnodup_set, (rd_nodup s r H).
    + intros j. apply nget_set.
    + intros j. apply nget_set.
    + apply nget_set_same.
    + intros y Hy. apply nget_set_other, Hy.
    + intros j y _ Ey <-. pose proof (rd_fresh s r H j _ Ey). lia.
    + lia.
    + lia.
  - (* set_timestamp *)
    cbn [wf_op] in Hwf. destruct (rlookup r id) as [en|] eqn:E; [|discriminate].
    destruct (dict_live s r id en H E) as (x & Hm & Hx & Hh).
    rewrite Hm. cbn [fst snd dm_att]. split; [|reflexivity].
    apply (RDict_put s _ r id (mkDMeta ts (en_att en)) x (en_env en) H); cbn [d_env d_meta d_heap d_next];
      [apply nnodup_set, (rd_nodup s r H)|intros j; apply nget_set|intros j; apply nget_set_id, Hx|exact Hh|reflexivity
      |apply (Hlive id x Hx)..|apply N.le_refl].
  - (* increment_attempts *)
    cbn [wf_op] in Hwf. destruct (rlookup r id) as [en|] eqn:E; [|discriminate].
    destruct (dict_live s r id en H E) as (x & Hm & Hx & Hh).
    rewrite Hm. cbn [fst snd dm_att dm_ts]. split; [|reflexivity].
    apply (RDict_put s _ r id (mkDMeta (en_ts en) (en_att en + 1)) x (en_env en) H); cbn [d_env d_meta d_heap d_next];
      [apply nnodup_set, (rd_nodup s r H)|intros j; apply nget_set|intros j; apply nget_set_id, Hx|exact Hh|reflexivity
      |apply (Hlive id x Hx)..|apply N.le_refl].
  - (* set_recipients_delivered: in place on the shared object *)
    destruct (rlookup r id) as [en|] eqn:E; [|cbn [wf_op] in Hwf; rewrite E in Hwf; discriminate].
    destruct (wf_deliv_round r id idxs tmps en Hwf E) as (l & Hl).
    destruct (dict_live s r id en H E) as (x & Hm & Hx & Hh).
    rewrite Hx, Hh, Hl, (round_round_p idxs _ l Hl). cbn [fst snd]. split; [|reflexivity].
    apply (RDict_put s _ r id (mkDMeta (en_ts en) (en_att en)) x _ H); cbn [d_env d_meta d_heap d_next];
      [apply (rd_nodup s r H)|intros j; apply nget_set_id, Hm|intros j; apply nget_set_id, Hx|apply nget_set_same
      |intros y Hy; apply nget_set_other, Hy|apply (Hlive id x Hx)..|apply N.le_refl].
  - (* load *)
    cbn [fst snd]. split; [exact H|]. cbn [res_match].
    apply load_perm; [apply (rd_nodup s r H)|apply (rd_ref s r H)|].
    intros id. destruct (rlookup r id) as [en|] eqn:E.
    + destruct (dict_live s r id en H E) as (x & Hm & _).
      unfold rlookup in E. rewrite Hm, E. reflexivity.
    + destruct (dict_dead s r id H E) as [Hm _]. unfold rlookup in E. rewrite Hm, E. reflexivity.
  - (* get *)
    unfold dict_get_ref. destruct (rlookup r id) as [en|] eqn:E.
    + destruct (dict_live s r id en H E) as (x & Hm & Hx & Hh).
      rewrite Hm, Hx, Hh. cbn [fst snd]. split; [exact H|reflexivity].
    + destruct (dict_dead s r id H E) as [Hm _]. rewrite Hm. cbn [fst snd]. split; [exact H|reflexivity].
  - (* remove *)
    cbn [fst snd]. split; [|reflexivity]. split; cbn [d_env d_meta d_heap d_next].
    + apply nnodup_del, (rd_ref s r H).
    + intros j. unfold dict_view, rlookup. cbn [d_env d_meta d_heap]. rewrite !nget_del.
      destruct (N.eqb_spec id j); [reflexivity|apply (rd_view s r H j)].
    + intros j. unfold rlookup. rewrite !nget_del. destruct (N.eqb_spec id j); [tauto|apply (rd_meta s r H j)].
    + intros j. unfold rlookup. rewrite !nget_del. destruct (N.eqb_spec id j); [tauto|apply (rd_env s r H j)].
    + intros i j x. rewrite !nget_del. destruct (N.eqb_spec id i); [discriminate|].
      destruct (N.eqb_spec id j); [discriminate|]. apply (rd_inj s r H).
    + intros i x. rewrite nget_del. destruct (N.eqb_spec id i); [discriminate|apply (rd_fresh s r H)].
    + apply nnodup_del, (rd_nodup s r H).
Qed.

Definition cdict_rep (s : cdstate) (r : rstore) (id : N) : Prop :=
  match rlookup r id with
  | Some en => alookup N.eqb (cd_env s) id = Some (en_env en) /\
               alookup N.eqb (cd_meta s) id = Some (mkDMeta (en_ts en) (en_att en))
  | None => alookup N.eqb (cd_env s) id = None /\ alookup N.eqb (cd_meta s) id = None
  end.

Record RCDict (s : cdstate) (r : rstore) : Prop := {
  rcd_ref : ref_ok r;
  rcd_nodup : NoDup (akeys (cd_meta s));
  rcd_rep : forall id, cdict_rep s r id }.

Lemma RCDict_init : RCDict cdict_init [].
Proof. split; [constructor|constructor|intros id; split; reflexivity]. Qed.

Lemma cdict_live s r id en :
  RCDict s r -> rlookup r id = Some en ->
  alookup N.eqb (cd_env s) id = Some (en_env en) /\
  alookup N.eqb (cd_meta s) id = Some (mkDMeta (en_ts en) (en_att en)).
Proof. intros H E. generalize (rcd_rep s r H id). unfold cdict_rep. rewrite E. exact (fun x => x). Qed.

Lemma cdict_dead s r id :
  RCDict s r -> rlookup r id = None -> alookup N.eqb (cd_env s) id = None /\ alookup N.eqb (cd_meta s) id = None.
Proof. intros H E. generalize (rcd_rep s r H id). unfold cdict_rep. rewrite E. exact (fun x => x). Qed.

Lemma cdict_view_rep s r id : RCDict s r -> cdict_view s id = rlookup r id.
Proof.
  intros H. unfold cdict_view. destruct (rlookup r id) as [en|] eqn:E.
  - destruct (cdict_live s r id en H E) as [-> ->]. destruct en; reflexivity.
  - destruct (cdict_dead s r id H E) as [-> ->]. reflexivity.
Qed.

Lemma cdict_pick_first_free s r cands : RCDict s r -> cdict_pick (cd_env s) cands = first_free r cands.
Proof.
  intros H. induction cands as [|c cs IH]; cbn [cdict_pick first_free]; [reflexivity|].
  rewrite nmem_get. destruct (rlookup r c) as [en|] eqn:E.
  - destruct (cdict_live s r c en H E) as [-> _]. exact IH.
  - destruct (cdict_dead s r c H E) as [-> _]. reflexivity.
Qed.

Lemma RCDict_put s s' r id e ts att :
  RCDict s r -> NoDup (akeys (cd_meta s')) ->
  (forall j, alookup N.eqb (cd_env s') j = if N.eqb id j then Some e else alookup N.eqb (cd_env s) j) ->
  (forall j, alookup N.eqb (cd_meta s') j = if N.eqb id j then Some (mkDMeta ts att) else alookup N.eqb (cd_meta s) j) ->
  RCDict s' (aset N.eqb r id (mkEntry e ts att)).
Proof.
  intros H Hn He Hm. split; [apply nnodup_set, (rcd_ref s r H)|exact Hn|].
  intros j. unfold cdict_rep, rlookup. rewrite He, Hm, nget_set.
  destruct (N.eqb id j); [split; reflexivity|apply (rcd_rep s r H j)].
Qed.

Lemma cdict_simulates : simulates (cdict_step true) (cdict_run true) RCDict cdict_view (fun _ => True).
Proof.
  split; [reflexivity|reflexivity|intros s r id; apply cdict_view_rep|]. intros s r o H Hwf _.
  pose proof (rcd_nodup s r H) as Hn. destruct o; cbn [cdict_step ref_step].
  - rewrite (cdict_pick_first_free s r cands H).
    destruct (first_free r cands) as [id|]; cbn [fst snd]; [|split; [exact H|reflexivity]].
    split; [|reflexivity]. apply (RCDict_put s); cbn [cd_env cd_meta];
      [exact H|apply nnodup_set, Hn|intros j; apply nget_set..].
  - cbn [wf_op] in Hwf. destruct (rlookup r id) as [en|] eqn:E; [|discriminate].
    destruct (cdict_live s r id en H E) as [He Hm]. rewrite Hm. cbn [fst snd dm_att]. split; [|reflexivity].
    apply (RCDict_put s); cbn [cd_env cd_meta];
      [exact H|apply nnodup_set, Hn|intros j; apply nget_set_id, He|intros j; apply nget_set].
  - cbn [wf_op] in Hwf. destruct (rlookup r id) as [en|] eqn:E; [|discriminate].
    destruct (cdict_live s r id en H E) as [He Hm]. rewrite Hm. cbn [fst snd dm_att dm_ts]. split; [|reflexivity].
    apply (RCDict_put s); cbn [cd_env cd_meta];
      [exact H|apply nnodup_set, Hn|intros j; apply nget_set_id, He|intros j; apply nget_set].
  - destruct (rlookup r id) as [en|] eqn:E; [|cbn [wf_op] in Hwf; rewrite E in Hwf; discriminate].
    destruct (wf_deliv_round r id idxs tmps en Hwf E) as (l & Hl).
    destruct (cdict_live s r id en H E) as [He Hm].
    rewrite He, Hl, (round_round_p idxs _ l Hl). cbn [fst snd]. split; [|reflexivity].
    apply (RCDict_put s); cbn [cd_env cd_meta];
      [exact H|exact Hn|intros j; apply nget_set|intros j; apply nget_set_id, Hm].
  - cbn [fst snd]. split; [exact H|]. cbn [res_match].
    apply load_perm; [exact Hn|apply (rcd_ref s r H)|].
    intros id. fold (rlookup r id). destruct (rlookup r id) as [en|] eqn:E.
    + destruct (cdict_live s r id en H E) as [_ ->]. reflexivity.
    + destruct (cdict_dead s r id H E) as [_ ->]. reflexivity.
  - destruct (rlookup r id) as [en|] eqn:E;
      [destruct (cdict_live s r id en H E) as [-> ->]|destruct (cdict_dead s r id H E) as [-> ->]];
      cbn [fst snd]; (split; [exact H|reflexivity]).
  - cbn [fst snd]. split; [|reflexivity]. split; cbn [cd_env cd_meta].
    + apply nnodup_del, (rcd_ref s r H).
    + apply nnodup_del, Hn.
    + intros j. unfold cdict_rep, rlookup. cbn [cd_env cd_meta]. rewrite !nget_del.
      destruct (N.eqb_spec id j); [split; reflexivity|apply (rcd_rep s r H j)].
Qed.

(* mutating the copy without assigning it back (the pre-d35 set_recipients_
   delivered; the same shape as a set_timestamp / increment_attempts that
   forgets `self.meta_db[id] = meta`) loses the update on this substrate *)
Example dict_copying_noassign_witness :
  snd (cdict_run false cdict_init [OWrite (mkEnv [1] [[2]; [3]] [4]) 5 [7] []; ODeliv 7 [0] []; OIncr 7 []; OSetTs 7 9 []; OGet 7; OLoad 0])
    = [RId 7; RUnit; RAtt 1; RUnit; RGot (mkEnv [1] [[2]; [3]] [4]) 0; RLoad [(5, 7)]] /\
  snd (cdict_run true cdict_init [OWrite (mkEnv [1] [[2]; [3]] [4]) 5 [7] []; ODeliv 7 [0] []; OIncr 7 []; OSetTs 7 9 []; OGet 7; OLoad 0])
    = [RId 7; RUnit; RAtt 1; RUnit; RGot (mkEnv [1] [[3]] [4]) 1; RLoad [(9, 7)]].
Proof. split; vm_compute; reflexivity. Qed.

Lemma load_perm_ids {V2} (ids : list N) (g : N -> N) (m2 : amap N V2) (t2 : V2 -> N) :
  NoDup ids -> NoDup (akeys m2) ->
  (forall id, In id ids <-> alookup N.eqb m2 id <> None) ->
  (forall id v, alookup N.eqb m2 id = Some v -> g id = t2 v) ->
  Permutation (map (fun id => (g id, id)) ids) (map (fun p => (t2 (snd p), fst p)) m2).
Proof.
  intros N1 N2 Hdom Hg. apply perm_by_ids; rewrite ?listing_ids; [rewrite map_map, map_id; exact N1|exact N2|].
  intros ts id. rewrite listing_In by exact N2. rewrite in_map_iff. split.
  - intros (k & E & Hin). inversion E; subst k ts. apply Hdom in Hin.
    destruct (alookup N.eqb m2 id) as [v|] eqn:E2; [|congruence]. exists v. split; [reflexivity|symmetry; apply Hg, E2].
  - intros (v & E2 & Hts). exists id. split; [rewrite (Hg id v E2), Hts; reflexivity|apply Hdom; congruence].
Qed.

Definition odef {A} (d : A) (o : option A) : A := match o with Some x => x | None => d end.

(* orph: the half-written entries (a writer died between the HSETNX of the
   envelope and the pipeline): hashes with the envelope field only, for ids the
   reference store does not know *)
Definition orphan_hash (e : envelope) : rhash := mkHash (Some e) None None None.

Definition redis_rep (orph : amap N envelope) (s : rstate) (r : rstore) (id : N) : Prop :=
  match rlookup r id with
  | Some en => alookup N.eqb orph id = None /\ exists e ts att dl,
      alookup N.eqb (r_hashes s) id = Some (mkHash (Some e) (Some ts) att dl) /\
      accum_entry e ts (odef 0 att) (odef [] dl) = Some en
  | None => alookup N.eqb (r_hashes s) id = option_map orphan_hash (alookup N.eqb orph id)
  end.

Record RRedisO (orph : amap N envelope) (s : rstate) (r : rstore) : Prop := {
  rr_ref : ref_ok r;
  rr_nodup : NoDup (akeys (r_hashes s));
  rr_orph : NoDup (akeys orph);
  rr_rep : forall id, redis_rep orph s r id }.

Notation RRedis := (RRedisO []).

Lemma RRedis_init : RRedis redis_init [].
Proof. split; [constructor|constructor|constructor|intros id; reflexivity]. Qed.

Lemma redis_live orph s r id en :
  RRedisO orph s r -> rlookup r id = Some en ->
  alookup N.eqb orph id = None /\ exists e ts att dl,
    alookup N.eqb (r_hashes s) id = Some (mkHash (Some e) (Some ts) att dl) /\
    accum_entry e ts (odef 0 att) (odef [] dl) = Some en.
Proof. intros H E. generalize (rr_rep orph s r H id). unfold redis_rep. rewrite E. exact (fun x => x). Qed.

Lemma redis_dead orph s r id :
  RRedisO orph s r -> rlookup r id = None ->
  alookup N.eqb (r_hashes s) id = option_map orphan_hash (alookup N.eqb orph id).
Proof. intros H E. generalize (rr_rep orph s r H id). unfold redis_rep. rewrite E. exact (fun x => x). Qed.

Lemma redis_view_rep orph s r id : RRedisO orph s r -> redis_view s id = rlookup r id.
Proof.
  intros H. unfold redis_view. destruct (rlookup r id) as [en|] eqn:E.
  - destruct (redis_live orph s r id en H E) as (_ & e & ts & att & dl & -> & Ha). unfold accum_entry in Ha.
    destruct dl as [l|]; cbn [odef] in Ha.
    + destruct (accum_get l (e_rcpts e)); [|discriminate]. destruct att; exact Ha.
    + unfold accum_get in Ha. rewrite replay_nil, with_rcpts_same in Ha. destruct att; exact Ha.
  - rewrite (redis_dead orph s r id H E). destruct (alookup N.eqb orph id); reflexivity.
Qed.

(* get() answers with what the view shows (it also answers for a hash without
   a timestamp, which the view does not show: redis_get_orphan) *)
Lemma redis_get_view s id en :
  redis_view s id = Some en -> run rexec (redis_prog (OGet id)) s = (s, RGot (en_env en) (en_att en)).
Proof.
  unfold redis_view. cbn [redis_prog run rexec]. unfold hget.
  destruct (alookup N.eqb (r_hashes s) id) as [[[e|] [ts|] att dl]|]; try discriminate. cbn [h_env h_att h_deliv].
  destruct dl as [l|]; [destruct (accum_get l (e_rcpts e)); [|discriminate]|]; intros E; inversion E; reflexivity.
Qed.

Lemma RRedis_put orph s r id e ts att dl en q :
  RRedisO orph s r -> alookup N.eqb orph id = None ->
  accum_entry e ts (odef 0 att) (odef [] dl) = Some en ->
  RRedisO orph (mkRedis (aset N.eqb (r_hashes s) id (mkHash (Some e) (Some ts) att dl)) q) (aset N.eqb r id en).
Proof.
  intros H Ho Ha. split; cbn [r_hashes].
  - apply nnodup_set, (rr_ref orph s r H).
  - apply nnodup_set, (rr_nodup orph s r H).
  - apply (rr_orph orph s r H).
  - intros j. unfold redis_rep, rlookup. cbn [r_hashes]. rewrite !nget_set.
    destruct (N.eqb_spec id j) as [<-|Hne]; [|apply (rr_rep orph s r H j)].
    split; [exact Ho|]. exists e, ts, att, dl. split; [reflexivity|exact Ha].
Qed.

Lemma hget_live s id h : alookup N.eqb (r_hashes s) id = Some h -> hget s id = h.
Proof. unfold hget. intros ->. reflexivity. Qed.
Lemma hget_dead s id : alookup N.eqb (r_hashes s) id = None -> hget s id = empty_hash.
Proof. unfold hget. intros ->. reflexivity. Qed.

Definition avoids (orph : amap N envelope) (o : op) : Prop :=
  match o with
  | OWrite _ _ cands _ => forall c, In c cands -> alookup N.eqb orph c = None   (* uuid4 does not draw their ids *)
  | OGet id => alookup N.eqb orph id = None                                     (* get(orphan): see redis_get_orphan *)
  | OLoad _ => orph = []                                                        (* load with orphans: see redis_load_perm *)
  | _ => True
  end.

Lemma r_write_run orph s r e ts cands :
  RRedisO orph s r -> (forall c, In c cands -> alookup N.eqb orph c = None) ->
  run rexec (r_write e ts cands) s =
  match first_free r cands with
  | Some id => (mkRedis (aset N.eqb (r_hashes s) id (mkHash (Some e) (Some ts) (Some 0) None))
                        (r_queue s ++ [(ts, id)]), RId id)
  | None => (s, RNoId)
  end.
Proof.
  intros H Hav. induction cands as [|c cs IH]; cbn [r_write run first_free]; [reflexivity|].
  destruct (rlookup r c) as [en|] eqn:E.
  - destruct (redis_live orph s r c en H E) as (_ & e' & ts' & att & dl & Hh & _).
    cbn [rexec]. rewrite (hget_live s c _ Hh). cbn [h_env].
    apply IH. intros c' Hc'. apply Hav. right; exact Hc'.
  - pose proof (redis_dead orph s r c H E) as Hc. rewrite (Hav c (or_introl eq_refl)) in Hc. cbn [option_map] in Hc.
    cbn [rexec]. rewrite (hget_dead s c Hc). cbn [h_env empty_hash h_ts h_att h_deliv run rexec].
    unfold hput, hget. cbn [r_hashes r_queue]. rewrite nget_set_same, (set_set N rhash N.eqb N.eqb_eq). reflexivity.
Qed.

Lemma r_load_loop_run s now ids qs acc :
  Forall (fun k => k = KQueue) qs ->
  run rexec (r_load_loop (map KId ids ++ qs) now acc) s =
  (s, RLoad (rev acc ++ map (fun id => (odef now (h_ts (hget s id)), id)) ids)).
Proof.
  intros Hq. revert acc; induction ids as [|id ids IH]; intros acc; cbn [map app r_load_loop].
  - rewrite app_nil_r. induction Hq as [|k qs -> _ IHq]; cbn [r_load_loop run]; [reflexivity|exact IHq].
  - cbn [run rexec]. destruct (h_ts (hget s id)) as [t|]; rewrite IH; cbn [rev odef];
      rewrite <- app_assoc; reflexivity.
Qed.

Definition rkeys (s : rstate) : list N := rev (sort_desc (akeys (r_hashes s))).

Lemma redis_load_run s now :
  run rexec (redis_prog (OLoad now)) s =
  (s, RLoad (map (fun id => (odef now (h_ts (hget s id)), id)) (rkeys s))).
Proof.
  cbn [redis_prog run rexec]. unfold rkeys. rewrite r_load_loop_run; [reflexivity|].
  destruct (r_queue s); repeat constructor.
Qed.

(* load() with half-written entries present: it does not raise, changes
   nothing (redis_load_run), lists every live message with its timestamp and
   every half-written entry with the current clock *)
Lemma redis_load_perm orph s r now :
  RRedisO orph s r ->
  Permutation (map (fun id => (odef now (h_ts (hget s id)), id)) (rkeys s))
              (map (fun p => (en_ts (snd p), fst p)) r ++ map (fun p => (now, fst p)) orph).
Proof.
  intros H.
  pose proof (rr_ref orph s r H) as Nr. pose proof (rr_orph orph s r H) as No.
  apply perm_by_ids.
  - rewrite map_map, map_id. eapply Permutation_NoDup; [apply sorted_asc_perm|apply (rr_nodup orph s r H)].
  - rewrite map_app, (listing_ids r), (listing_ids orph (fun _ => now)). apply NoDup_app_iff.
    split; [exact Nr|]. split; [exact No|]. intros id H1 H2. apply nget_keys in H1. apply nget_keys in H2.
    destruct (rlookup r id) as [en|] eqn:E; [|exact (H1 E)]. exact (H2 (proj1 (redis_live orph s r id en H E))).
  - intros t id. rewrite in_app_iff, listing_In, (listing_In orph (fun _ => now)) by assumption.
    assert (L : In (t, id) (map (fun id => (odef now (h_ts (hget s id)), id)) (rkeys s)) <->
                alookup N.eqb (r_hashes s) id <> None /\ odef now (h_ts (hget s id)) = t).
    { rewrite in_map_iff. split.
      - intros (k & E & Hin). inversion E; subst k t. split; [apply nget_keys, sorted_asc_In, Hin|reflexivity].
      - intros [Hin <-]. exists id. split; [reflexivity|apply sorted_asc_In, nget_keys, Hin]. }
    rewrite L. clear L. unfold hget. fold (rlookup r id). destruct (rlookup r id) as [en|] eqn:E.
    + (* a live message: its hash carries the timestamp of the entry *)
      destruct (redis_live orph s r id en H E) as (Ho & e & ts0 & att & dl & -> & Ha).
      destruct (accum_entry_fields _ _ _ _ _ Ha) as [<- _]. rewrite Ho. cbn [h_ts odef]. split.
      * intros [_ <-]. left. exists en. split; reflexivity.
      * intros [(en' & E' & <-)|(e' & E' & _)]; [inversion E'; split; [discriminate|reflexivity]|discriminate].
    + (* no message: a half-written entry has no timestamp, anything else no hash *)
      rewrite (redis_dead orph s r id H E). destruct (alookup N.eqb orph id) as [e|]; cbn [option_map orphan_hash h_ts odef]; split.
      * intros [_ <-]. right. exists e. split; reflexivity.
      * intros [(en' & E' & _)|(e' & _ & <-)]; [discriminate|split; [discriminate|reflexivity]].
      * intros [Hn _]. destruct (Hn eq_refl).
      * intros [(en' & E' & _)|(e' & E' & _)]; discriminate.
Qed.

Lemma redis_get_orphan orph s r id e :
  RRedisO orph s r -> alookup N.eqb orph id = Some e ->
  run rexec (redis_prog (OGet id)) s = (s, RGot e 0).
Proof.
  intros H Eo. destruct (rlookup r id) as [en|] eqn:E; [destruct (redis_live orph s r id en H E) as [Hn _]; congruence|].
  pose proof (redis_dead orph s r id H E) as Hr. rewrite Eo in Hr.
  cbn [redis_prog run rexec]. rewrite (hget_live s id _ Hr). reflexivity.
Qed.

Lemma redis_orphan_injection orph s r id e :
  RRedisO orph s r -> rlookup r id = None -> alookup N.eqb orph id = None ->
  RRedisO (aset N.eqb orph id e) (fst (rexec s (QHsetnxEnv id e))) r.
Proof.
  intros H Er Eo. pose proof (redis_dead orph s r id H Er) as Hid. rewrite Eo in Hid.
  cbn [rexec]. rewrite (hget_dead s id Hid). cbn [empty_hash h_env h_ts h_att h_deliv fst].
  unfold hput. split; cbn [r_hashes].
  - apply (rr_ref orph s r H).
  - apply nnodup_set, (rr_nodup orph s r H).
  - apply nnodup_set, (rr_orph orph s r H).
  - intros j. pose proof (rr_rep orph s r H j) as Hr. unfold redis_rep in *. cbn [r_hashes]. rewrite !nget_set.
    destruct (N.eqb_spec id j) as [<-|Hne].
    + rewrite Er. reflexivity.
    + exact Hr.
Qed.

Lemma redis_simulates orph : simulates redis_step redis_run (RRedisO orph) redis_view (avoids orph).
Proof.
  split; [reflexivity|reflexivity|intros s r id; apply redis_view_rep|]. intros s r o H Hwf Hav.
  unfold redis_step. destruct (is_update o) eqn:Hu.
  { (* the three updates: the hash gets the fields accum_step names *)
    destruct (op_id o) as [id|] eqn:Hid; [|destruct o; discriminate].
    destruct (wf_update_live r o id Hu Hid Hwf) as [en E].
    destruct (redis_live orph s r id en H E) as (Ho & e & ts0 & att & dl & Hh & Ha).
    destruct (accum_step r o id en e _ _ _ Hu Hid Hwf E Ha) as (en' & Ha' & ->).
    destruct o; try discriminate Hu; inversion Hid; subst id0;
      cbn [redis_prog run rexec fst snd upd_res upd_ts upd_att upd_sc] in *;
      rewrite (hget_live s id _ Hh); cbn [h_env h_ts h_att h_deliv run fst snd]; unfold hput.
    - split; [|reflexivity]. apply RRedis_put; assumption.
    - replace (match att with Some a => a + 1 | None => 1 end) with (odef 0 att + 1) by (destruct att; reflexivity).
      split; [|reflexivity]. apply RRedis_put; assumption.
    - split; [|reflexivity]. apply RRedis_put; assumption. }
  destruct o; try discriminate Hu; cbn [ref_step avoids] in *.
  - (* write *)
    cbn [redis_prog]. rewrite (r_write_run orph s r e ts cands H Hav).
    destruct (first_free r cands) as [id|] eqn:Ef; cbn [fst snd]; [|split; [exact H|reflexivity]].
    split; [|reflexivity].
    apply RRedis_put; [exact H|apply Hav, (first_free_spec r cands id Ef)|apply accum_entry_new].
  - (* load, whatever is on the announcement list *)
    subst orph. rewrite redis_load_run. split; [exact H|].
    cbn [fst snd res_match]. rewrite <- (app_nil_r (map _ r)). apply (redis_load_perm [] s r now H).
  - (* get *)
    destruct (rlookup r id) as [en|] eqn:E.
    + rewrite (redis_get_view s id en) by (rewrite (redis_view_rep orph s r id H); exact E). split; [exact H|reflexivity].
    + pose proof (redis_dead orph s r id H E) as Hr. rewrite Hav in Hr.
      cbn [redis_prog run rexec]. rewrite (hget_dead s id Hr). split; [exact H|reflexivity].
  - (* remove *)
    cbn [wf_op] in Hwf. destruct (rlookup r id) as [en|] eqn:E; [|discriminate].
    destruct (redis_live orph s r id en H E) as [Ho _].
    cbn [redis_prog run rexec fst snd]. split; [|reflexivity]. split; cbn [r_hashes].
    + apply nnodup_del, (rr_ref orph s r H).
    + apply nnodup_del, (rr_nodup orph s r H).
    + apply (rr_orph orph s r H).
    + intros j. unfold redis_rep, rlookup. cbn [r_hashes]. rewrite !nget_del.
      destruct (N.eqb_spec id j) as [<-|Hne]; [rewrite Ho; reflexivity|apply (rr_rep orph s r H j)].
Qed.

Lemma avoids_nil o : avoids [] o.
Proof. destruct o; cbn; try exact I; try reflexivity; intros; reflexivity. Qed.

Lemma RRedis_wait orph s r : RRedisO orph s r -> RRedisO orph (fst (run rexec redis_wait s)) r.
Proof.
  intros H. assert (E : r_hashes (fst (run rexec redis_wait s)) = r_hashes s)
    by (cbn [redis_wait run rexec]; destruct (r_queue s); reflexivity).
  split; [apply (rr_ref orph s r H)|rewrite E; apply (rr_nodup orph s r H)|apply (rr_orph orph s r H)|].
  intros id. generalize (rr_rep orph s r H id). unfold redis_rep. rewrite E. exact (fun x => x).
Qed.

Fixpoint op_results (its : list ritem) (xs : list res) : list res :=
  match its, xs with
  | RIop _ :: its', x :: xs' => x :: op_results its' xs'
  | RIwait :: its', _ :: xs' => op_results its' xs'
  | RIorphan _ _ :: its', _ :: xs' => op_results its' xs'
  | _, _ => []
  end.

Fixpoint items_wf (orph : amap N envelope) (r : rstore) (its : list ritem) : Prop :=
  match its with
  | [] => True
  | RIop o :: its' => wf_op r o = true /\ avoids orph o /\ items_wf orph (fst (ref_step r o)) its'
  | RIwait :: its' => items_wf orph r its'
  | RIorphan id e :: its' => rlookup r id = None /\ alookup N.eqb orph id = None /\ items_wf (aset N.eqb orph id e) r its'
  end.

Fixpoint items_orph (orph : amap N envelope) (its : list ritem) : amap N envelope :=
  match its with
  | [] => orph
  | RIorphan id e :: its' => items_orph (aset N.eqb orph id e) its'
  | _ :: its' => items_orph orph its'
  end.

Theorem refines_redis_items its : forall orph s r,
  RRedisO orph s r -> items_wf orph r its ->
  RRedisO (items_orph orph its) (fst (redis_run_items s its)) (fst (ref_run r (ritem_ops its))) /\
  Forall2 res_match (op_results its (snd (redis_run_items s its))) (snd (ref_run r (ritem_ops its))).
Proof.
  induction its as [|it its IH]; intros orph s r HR Hwf; cbn [redis_run_items ritem_ops items_orph].
  - cbn [ref_run fst snd op_results]. split; [exact HR|constructor].
  - destruct it as [o| |id e]; cbn [ritem_step ritem_ops items_wf] in *.
    + destruct Hwf as (Hw1 & Hav & Hw2). cbn [ref_run].
      destruct (sim_step _ _ _ _ _ (redis_simulates orph) s r o HR Hw1 Hav) as [HR1 Hm].
      destruct (redis_step s o) as [s1 x]. destruct (ref_step r o) as [r1 y]. cbn [fst snd] in *.
      destruct (IH orph s1 r1 HR1 Hw2) as [HR2 Hms].
      destruct (redis_run_items s1 its) as [s2 xs]. destruct (ref_run r1 (ritem_ops its)) as [r2 ys].
      cbn [fst snd op_results] in *. split; [exact HR2|constructor; assumption].
    + pose proof (RRedis_wait orph s r HR) as HR1.
      destruct (run rexec redis_wait s) as [s1 x]. cbn [fst] in HR1.
      destruct (IH orph s1 r HR1 Hwf) as [HR2 Hms].
      destruct (redis_run_items s1 its) as [s2 xs]. cbn [fst snd op_results] in *. split; assumption.
    + destruct Hwf as (Er & Eo & Hw2).
      pose proof (redis_orphan_injection orph s r id e HR Er Eo) as HR1.
      destruct (IH _ _ r HR1 Hw2) as [HR2 Hms].
      destruct (redis_run_items (fst (rexec s (QHsetnxEnv id e))) its) as [s2 xs]. cbn [fst snd op_results] in *.
      split; assumption.
Qed.

Lemma redis_write_announces orph s r e ts cands tmps id :
  RRedisO orph s r -> (forall c, In c cands -> alookup N.eqb orph c = None) ->
  snd (redis_step s (OWrite e ts cands tmps)) = RId id ->
  r_queue (fst (redis_step s (OWrite e ts cands tmps))) = r_queue s ++ [(ts, id)].
Proof.
  intros H Hav. unfold redis_step. cbn [redis_prog]. rewrite (r_write_run orph s r e ts cands H Hav).
  destruct (first_free r cands); cbn [fst snd r_queue]; [|discriminate]. intros E; inversion E; reflexivity.
Qed.

Definition cloud_rep (s : cstate) (r : rstore) (id : N) : Prop :=
  match rlookup r id with
  | Some en => exists o, alookup N.eqb (c_objs s) id = Some o /\
                         accum_entry (o_env o) (o_ts o) (odef 0 (o_att o)) (odef [] (o_deliv o)) = Some en
  | None => alookup N.eqb (c_objs s) id = None
  end.

Record RCloud (s : cstate) (r : rstore) : Prop := {
  rc_ref : ref_ok r;
  rc_nodup : NoDup (akeys (c_objs s));
  rc_rep : forall id, cloud_rep s r id }.

Lemma RCloud_init fails : RCloud (cloud_init fails) [].
Proof. split; [constructor|constructor|intros id; reflexivity]. Qed.

Lemma cloud_live s r id en :
  RCloud s r -> rlookup r id = Some en ->
  exists o, alookup N.eqb (c_objs s) id = Some o /\
            accum_entry (o_env o) (o_ts o) (odef 0 (o_att o)) (odef [] (o_deliv o)) = Some en.
Proof. intros H E. generalize (rc_rep s r H id). unfold cloud_rep. rewrite E. exact (fun x => x). Qed.

Lemma cloud_dead s r id : RCloud s r -> rlookup r id = None -> alookup N.eqb (c_objs s) id = None.
Proof. intros H E. generalize (rc_rep s r H id). unfold cloud_rep. rewrite E. exact (fun x => x). Qed.

Lemma cloud_view_rep s r id : RCloud s r -> cloud_view s id = rlookup r id.
Proof.
  intros H. unfold cloud_view. destruct (rlookup r id) as [en|] eqn:E.
  - destruct (cloud_live s r id en H E) as (o & -> & Ha). exact Ha.
  - rewrite (cloud_dead s r id H E). reflexivity.
Qed.

Lemma cloud_get_view mq s id en :
  cloud_view s id = Some en -> run cexec (cloud_prog mq (OGet id)) s = (s, RGot (en_env en) (en_att en)).
Proof.
  unfold cloud_view. cbn [cloud_prog run cexec]. destruct (alookup N.eqb (c_objs s) id) as [o|]; [|discriminate].
  destruct (accum_get _ (e_rcpts (o_env o))); [|discriminate]. intros E; inversion E; reflexivity.
Qed.

Lemma cloud_pick_first_free s r cands :
  RCloud s r -> cloud_pick (c_objs s) cands = first_free r cands.
Proof.
  intros H. induction cands as [|c cs IH]; cbn [cloud_pick first_free]; [reflexivity|].
  rewrite nmem_get. destruct (rlookup r c) as [en|] eqn:E.
  - destruct (cloud_live s r c en H E) as (o & -> & _). exact IH.
  - rewrite (cloud_dead s r c H E). reflexivity.
Qed.

Lemma RCloud_put s r id o en q f :
  RCloud s r -> accum_entry (o_env o) (o_ts o) (odef 0 (o_att o)) (odef [] (o_deliv o)) = Some en ->
  RCloud (mkCloud (aset N.eqb (c_objs s) id o) q f) (aset N.eqb r id en).
Proof.
  intros H Ha. split; cbn [c_objs].
  - apply nnodup_set, (rc_ref s r H).
  - apply nnodup_set, (rc_nodup s r H).
  - intros j. unfold cloud_rep, rlookup. cbn [c_objs]. rewrite !nget_set.
    destruct (N.eqb_spec id j) as [<-|Hne]; [exists o; split; [reflexivity|exact Ha]|apply (rc_rep s r H j)].
Qed.

Lemma RCloud_mqueue s r id ts : RCloud s r -> RCloud (fst (cexec s (MQueue id ts))) r.
Proof.
  intros H. cbn [cexec]. destruct (c_mqfail s) as [|[|] fl];
    (split; [apply (rc_ref s r H)|apply (rc_nodup s r H)|apply (rc_rep s r H)]).
Qed.

Lemma cloud_simulates mq : simulates (cloud_step mq) (cloud_run mq) RCloud cloud_view (fun _ => True).
Proof.
  split; [reflexivity|reflexivity|intros s r id; apply cloud_view_rep|]. intros s r o H Hwf _.
  unfold cloud_step. destruct (is_update o) eqn:Hu.
  { (* the three updates: the object gets the fields accum_step names *)
    destruct (op_id o) as [id|] eqn:Hid; [|destruct o; discriminate].
    destruct (wf_update_live r o id Hu Hid Hwf) as [en E].
    destruct (cloud_live s r id en H E) as (ob & Ho & Ha).
    destruct (accum_step r o id en _ _ _ _ Hu Hid Hwf E Ha) as (en' & Ha' & ->).
    destruct o; try discriminate Hu; inversion Hid; subst id0;
      cbn [cloud_prog run cexec]; rewrite Ho; cbn [run cexec]; rewrite ?Ho;
      cbn [run fst snd or_else upd_res]; (split; [|reflexivity]);
      (apply RCloud_put; [exact H|exact Ha']). }
  destruct o; try discriminate Hu; cbn [ref_step].
  - (* write *)
    cbn [cloud_prog run cexec]. rewrite (cloud_pick_first_free s r cands H).
    destruct (first_free r cands) as [id|] eqn:Ef; cbn [run fst snd]; [|split; [exact H|reflexivity]].
    assert (H1 : RCloud (mkCloud (aset N.eqb (c_objs s) id (mkObj e ts None None)) (c_mq s) (c_mqfail s))
                        (aset N.eqb r id (mkEntry e ts 0))).
    { apply RCloud_put; [exact H|]. cbn [o_env o_ts o_att o_deliv odef]. apply accum_entry_new. }
    destruct mq; cbn [run]; [|split; [exact H1|reflexivity]].
    apply (RCloud_mqueue _ _ id ts) in H1. destruct (cexec _ (MQueue id ts)) as [s2 a]. split; [exact H1|reflexivity].
  - (* load *)
    cbn [cloud_prog run cexec fst snd]. split; [exact H|]. cbn [res_match].
    apply load_perm; [apply (rc_nodup s r H)|apply (rc_ref s r H)|].
    intros id. fold (rlookup r id). destruct (rlookup r id) as [en|] eqn:E.
    + destruct (cloud_live s r id en H E) as (o & -> & Ha). cbn [option_map].
      destruct (accum_entry_fields _ _ _ _ _ Ha) as [-> _]. reflexivity.
    + rewrite (cloud_dead s r id H E). reflexivity.
  - (* get *)
    destruct (rlookup r id) as [en|] eqn:E.
    + rewrite (cloud_get_view mq s id en) by (rewrite (cloud_view_rep s r id H); exact E). split; [exact H|reflexivity].
    + cbn [cloud_prog run cexec]. rewrite (cloud_dead s r id H E). split; [exact H|reflexivity].
  - (* remove *)
    cbn [wf_op] in Hwf. destruct (rlookup r id) as [en|] eqn:E; [|discriminate].
    destruct (cloud_live s r id en H E) as (o & Ho & _).
    cbn [cloud_prog run cexec]. rewrite Ho. cbn [run fst snd]. split; [|reflexivity]. split; cbn [c_objs].
    + apply nnodup_del, (rc_ref s r H).
    + apply nnodup_del, (rc_nodup s r H).
    + intros j. unfold cloud_rep, rlookup. cbn [c_objs]. rewrite !nget_del.
      destruct (N.eqb_spec id j); [reflexivity|apply (rc_rep s r H j)].
Qed.

Definition tmps_ok (o : op) : Prop :=
  match o with
  | OWrite _ _ _ tmps => (2 <= length tmps)%nat
  | OSetTs _ _ tmps | OIncr _ tmps | ODeliv _ _ tmps => (1 <= length tmps)%nat
  | _ => True
  end.

Definition op_tmps (o : op) : list N :=
  match o with
  | OWrite _ _ _ tmps | OSetTs _ _ tmps | OIncr _ tmps | ODeliv _ _ tmps => tmps
  | _ => []
  end.

(* the three updates on disk: read the meta file, apply meta_upd, dump it *)
Definition meta_upd (o : op) (m : meta) : meta :=
  match o with
  | OSetTs _ ts _ => mkMeta ts (m_att m) (m_deliv m)
  | OIncr _ _ => mkMeta (m_ts m) (m_att m + 1) (m_deliv m)
  | ODeliv _ idxs _ => mkMeta (m_ts m) (m_att m) (Some (accum_mark (deliv_list m) idxs))
  | _ => m
  end.
Definition meta_res (o : op) (m : meta) : res := match o with OIncr _ _ => RAtt (m_att m) | _ => RUnit end.

Lemma meta_upd_entry o e m en :
  accum_entry e (upd_ts o (m_ts m)) (upd_att o (m_att m)) (upd_sc o (deliv_list m)) = Some en ->
  accum_entry e (m_ts (meta_upd o m)) (m_att (meta_upd o m)) (deliv_list (meta_upd o m)) = Some en.
Proof. destruct o; exact (fun x => x). Qed.

Lemma meta_res_upd o m : meta_res o (meta_upd o m) = upd_res o (m_att m).
Proof. destruct o; reflexivity. Qed.

Lemma update_tmps o : is_update o = true -> tmps_ok o -> exists t tl, op_tmps o = t :: tl.
Proof.
  destruct o; try discriminate; intros _; cbn [tmps_ok op_tmps];
    (destruct tmps as [|t tl]; [cbn [length]; lia|eauto]).
Qed.

Section DiskRefine.
  Variable enc_env : envelope -> bytes.
  Variable dec_env : bytes -> option envelope.
  Variable enc_meta : meta -> bytes.
  Variable dec_meta : bytes -> option meta.
  Variable chunk : wcfg.
  Hypothesis dec_enc_env : forall e, dec_env (enc_env e) = Some e.
  Hypothesis dec_enc_meta : forall m, dec_meta (enc_meta m) = Some m.
  Hypothesis enc_env_nonempty : forall e, enc_env e <> [].
  Hypothesis enc_meta_nonempty : forall m, enc_meta m <> [].
  Hypothesis chunk_pos : wcfg_ok chunk.

  Notation dprog_of := (disk_prog enc_env dec_env enc_meta dec_meta chunk).
  Notation dstep := (disk_step enc_env dec_env enc_meta dec_meta chunk).
  Notation drun := (disk_run enc_env dec_env enc_meta dec_meta chunk).
  Notation dview := (disk_view dec_env dec_meta).

  Definition disk_rep (s : fs) (r : rstore) (id : N) : Prop :=
    match rlookup r id with
    | Some en => exists e m, fget s (PEnv id) = Some (enc_env e) /\ fget s (PMeta id) = Some (enc_meta m) /\
                             accum_entry e (m_ts m) (m_att m) (deliv_list m) = Some en
    | None => fget s (PEnv id) = None /\ fget s (PMeta id) = None
    end.

  Record RDisk (s : fs) (r : rstore) : Prop := {
    rk_ref : ref_ok r;
    rk_tmp : forall t, fget s (PTmp t) = None;
    rk_rep : forall id, disk_rep s r id }.

  Lemma RDisk_init : RDisk [] [].
  Proof. split; [constructor|reflexivity|intros id; split; reflexivity]. Qed.

  Lemma disk_live s r id en :
    disk_rep s r id -> rlookup r id = Some en ->
    exists e m, fget s (PEnv id) = Some (enc_env e) /\ fget s (PMeta id) = Some (enc_meta m) /\
                accum_entry e (m_ts m) (m_att m) (deliv_list m) = Some en.
  Proof. unfold disk_rep. intros H E. rewrite E in H. exact H. Qed.

  Lemma disk_dead s r id :
    disk_rep s r id -> rlookup r id = None -> fget s (PEnv id) = None /\ fget s (PMeta id) = None.
  Proof. unfold disk_rep. intros H E. rewrite E in H. exact H. Qed.

  (* the representation of id looks at the two files of id and at id's entry only *)
  Lemma disk_rep_ext s s' r r' id :
    fget s' (PEnv id) = fget s (PEnv id) -> fget s' (PMeta id) = fget s (PMeta id) -> rlookup r' id = rlookup r id ->
    disk_rep s r id -> disk_rep s' r' id.
  Proof. unfold disk_rep. intros -> -> ->. exact (fun x => x). Qed.

  Lemma disk_live_env s r id : RDisk s r -> rlookup r id <> None -> fget s (PEnv id) <> None.
  Proof.
    intros H Hl. destruct (rlookup r id) as [en|] eqn:E; [|congruence].
    destruct (disk_live s r id en (rk_rep s r H id) E) as (e & m & -> & _). discriminate.
  Qed.

  Lemma disk_rep_set s r id e m en :
    fget s (PEnv id) = Some (enc_env e) -> fget s (PMeta id) = Some (enc_meta m) ->
    accum_entry e (m_ts m) (m_att m) (deliv_list m) = Some en -> disk_rep s (aset N.eqb r id en) id.
  Proof. intros He Hm Ha. unfold disk_rep, rlookup. rewrite nget_set_same. exists e, m. auto. Qed.

  Lemma disk_rep_del s r id : disk_rep (fdel (fdel s (PEnv id)) (PMeta id)) (adel N.eqb r id) id.
  Proof.
    unfold disk_rep, rlookup. rewrite nget_del_same.
    split; [rewrite fget_fdel_other by discriminate; apply fget_fdel_same|apply fget_fdel_same].
  Qed.

  Lemma disk_rep_view s r id : disk_rep s r id -> dview s id = rlookup r id.
  Proof.
    intros Hr. unfold disk_view. destruct (rlookup r id) as [en|] eqn:E.
    - destruct (disk_live s r id en Hr E) as (e & m & -> & -> & Ha). rewrite dec_enc_meta, dec_enc_env. exact Ha.
    - destruct (disk_dead s r id Hr E) as [-> ->]. reflexivity.
  Qed.

  Lemma disk_view_rep s r id : RDisk s r -> dview s id = rlookup r id.
  Proof. intros H. apply disk_rep_view, (rk_rep s r H). Qed.

  Lemma disk_rep_get s r id :
    disk_rep s r id -> snd (run dexec (d_get dec_env dec_meta id) s) = snd (ref_step r (OGet id)).
  Proof.
    intros Hr. pose proof (disk_rep_view s r id Hr) as Hv. cbn [ref_step].
    destruct (rlookup r id) as [en|] eqn:E.
    - rewrite (get_run_view dec_env dec_meta s id en Hv). reflexivity.
    - destruct (disk_dead s r id Hr E) as [_ Hm]. rewrite (get_run_nometa dec_env dec_meta s id Hm). reflexivity.
  Qed.

  Lemma disk_prog_update o id :
    is_update o = true -> op_id o = Some id ->
    dprog_of o = update_meta enc_meta dec_meta chunk id (op_tmps o) (meta_upd o) (meta_res o).
  Proof. destruct o; try discriminate; intros _ E; inversion E; reflexivity. Qed.

  Lemma RDisk_metas_ok s r : RDisk s r -> metas_ok dec_meta s.
  Proof.
    intros H id b E. pose proof (rk_rep s r H id) as Hr. destruct (rlookup r id) as [en|] eqn:El.
    - destruct (disk_live s r id en Hr El) as (e & m & _ & Hm & _). rewrite Hm in E. inversion E; subst.
      rewrite dec_enc_meta. discriminate.
    - destruct (disk_dead s r id Hr El) as [_ Hm]. congruence.
  Qed.

  Lemma RDisk_put s s2 r id e m en ps :
    RDisk s r -> agree_but ps s s2 ->
    (forall q, In q ps -> q = PEnv id \/ q = PMeta id \/ exists t, q = PTmp t) ->
    fget s2 (PEnv id) = Some (enc_env e) -> fget s2 (PMeta id) = Some (enc_meta m) ->
    (forall t, In (PTmp t) ps -> fget s2 (PTmp t) = None) ->
    accum_entry e (m_ts m) (m_att m) (deliv_list m) = Some en ->
    RDisk s2 (aset N.eqb r id en).
  Proof.
    intros H Hag Hps He Hm Ht Ha. split.
    - apply nnodup_set, (rk_ref s r H).
    - intros t. destruct (in_dec path_eq_dec (PTmp t) ps) as [Hin|Hni]; [apply Ht; exact Hin|].
      rewrite (Hag _ Hni). apply (rk_tmp s r H).
    - intros j. destruct (N.eq_dec id j) as [<-|Hne]; [apply (disk_rep_set s2 r id e m); assumption|].
      assert (N1 : ~ In (PEnv j) ps) by (intros Hin; destruct (Hps _ Hin) as [E|[E|[t E]]]; inversion E; congruence).
      assert (N2 : ~ In (PMeta j) ps) by (intros Hin; destruct (Hps _ Hin) as [E|[E|[t E]]]; inversion E; congruence).
      apply (disk_rep_ext s s2 r); [apply Hag, N1|apply Hag, N2|apply nget_set_other, Hne|apply (rk_rep s r H j)].
  Qed.

  Lemma disk_simulates : simulates dstep drun RDisk dview tmps_ok.
  Proof.
    split; [reflexivity|reflexivity|intros s r id; apply disk_view_rep|]. intros s r o H Hwf Htm.
    set (I := fun (_ : list (op * res)) (_ : op) (_ : fs) => True).
    set (B := fun (d : list (op * res)) (s' : fs) =>
                exists x, d = [(o, x)] /\ RDisk s' (fst (ref_step r o)) /\ res_match x (snd (ref_step r o))).
    assert (Hok : okrun fs dcmd dans dexec I B [] o s (dprog_of o)).
    2:{ pose proof (okrun_run fs dcmd dans dexec I B [] o s _ Hok) as (x & E & HR & Hm). cbn [app] in E. inversion E; subst x.
        split; assumption. }
    destruct (is_update o) eqn:Hu.
    { destruct (op_id o) as [id|] eqn:Hid; [|destruct o; discriminate].
      destruct (wf_update_live r o id Hu Hid Hwf) as [en E].
      destruct (disk_live s r id en (rk_rep s r H id) E) as (e & m & He & Hm & Ha).
      destruct (accum_step r o id en e _ _ _ Hu Hid Hwf E Ha) as (en' & Ha' & Es).
      destruct (update_tmps o Hu Htm) as (t & tl & Et).
      rewrite (disk_prog_update o id Hu Hid), Et.
      apply (okrun_update enc_meta dec_meta chunk dec_enc_meta enc_meta_nonempty chunk_pos I B [] o id t tl _ _ s m Hm
               (rk_tmp s r H t)); [intros; exact Logic.I|].
      intros s2 A G F. split; [exact Logic.I|]. exists (meta_res o (meta_upd o m)). split; [reflexivity|].
      rewrite Es, meta_res_upd. cbn [fst snd]. split; [|apply res_match_eq].
      eapply (RDisk_put s s2 r id e _ _ [PTmp t; PMeta id]); try eassumption.
      + intros q [<-|[<-|[]]]; eauto.
      + rewrite A; [exact He|]. intros [E'|[E'|[]]]; discriminate.
      + intros t' [E'|[E'|[]]]; inversion E'; subst; assumption.
      + apply meta_upd_entry. exact Ha'. }
    destruct o; try discriminate Hu; cbn [disk_prog tmps_ok] in *.
    - (* write *)
      destruct tmps as [|t1 [|t2 tmps]]; cbn [length] in Htm; try lia.
      cbn [ref_step] in B. destruct (first_free r cands) as [id|] eqn:Ef.
      + destruct (first_free_split r cands id Ef) as (pre & post & -> & Hpre & Hid).
        destruct (disk_dead s r id (rk_rep s r H id) Hid) as [He Hm].
        apply (okrun_write enc_env enc_meta chunk enc_env_nonempty enc_meta_nonempty chunk_pos I B);
          try exact He; try apply (rk_tmp s r H); try (intros; exact Logic.I).
        * intros c Hc. apply (disk_live_env s r c H), Hpre, Hc.
        * intros s2 A G1 G2 F1 F2. split; [exact Logic.I|]. exists (RId id). split; [reflexivity|]. split; [|reflexivity].
          cbn [fst]. eapply (RDisk_put s s2 r id e (mkMeta ts 0 None)); try eassumption.
          -- intros q [<-|[<-|[<-|[<-|[]]]]]; eauto.
          -- intros t [E|[E|[E|[E|[]]]]]; inversion E; subst; assumption.
          -- cbn [m_ts m_att deliv_list m_deliv]. apply accum_entry_new.
      + apply (okrun_write_noid enc_env enc_meta chunk I B); [|exact Logic.I|].
        * intros c Hc. apply (disk_live_env s r c H), (first_free_none r cands Ef c Hc).
        * exists RNoId. split; [reflexivity|]. split; [exact H|reflexivity].
    - (* load *)
      apply okrun_ro; [apply readonly_ro, (readonly_load enc_env dec_env enc_meta dec_meta chunk now)|exact Logic.I|].
      change (Do CListdir _) with (dprog_of (OLoad now)).
      rewrite (load_run enc_env dec_env enc_meta dec_meta chunk s now (RDisk_metas_ok s r H)). cbn [snd].
      eexists. split; [reflexivity|]. split; [exact H|]. cbn [ref_step snd res_match].
      apply perm_by_ids; [apply NoDup_load_list, env_ids_NoDup|rewrite listing_ids; apply (rk_ref s r H)|].
      intros t id. rewrite In_load_list, env_ids_In, listing_In by apply (rk_ref s r H).
      fold (rlookup r id). destruct (rlookup r id) as [en|] eqn:E.
      + destruct (disk_live s r id en (rk_rep s r H id) E) as (e & m & He & Hm & Ha).
        destruct (accum_entry_fields _ _ _ _ _ Ha) as [Hts _]. rewrite He, Hm. split.
        * intros (_ & b & m' & Eb & Ed & <-). inversion Eb; subst b. rewrite dec_enc_meta in Ed. inversion Ed; subst m'.
          exists en. split; [reflexivity|exact Hts].
        * intros (en' & E' & <-). inversion E'; subst en'. split; [discriminate|].
          exists (enc_meta m), m. repeat split; [apply dec_enc_meta|symmetry; exact Hts].
      + destruct (disk_dead s r id (rk_rep s r H id) E) as [He _]. rewrite He. split; [intros [Hn _]; destruct (Hn eq_refl)|].
        intros (en' & E' & _). discriminate.
    - (* get *)
      apply okrun_ro; [apply readonly_ro, readonly_get|exact Logic.I|].
      eexists. split; [reflexivity|]. split; [|apply res_match_of_eq, disk_rep_get, (rk_rep s r H)].
      cbn [ref_step]. destruct (rlookup r id); exact H.
    - (* remove *)
      apply (okrun_remove enc_env dec_env enc_meta dec_meta chunk I B); try exact Logic.I.
      exists RUnit. split; [reflexivity|]. split; [|reflexivity]. cbn [ref_step fst]. split.
      + apply nnodup_del, (rk_ref s r H).
      + intros t. rewrite !fget_fdel_other by discriminate. apply (rk_tmp s r H).
      + intros j. destruct (N.eq_dec id j) as [<-|Hne]; [apply disk_rep_del|].
        apply (disk_rep_ext s _ r); [rewrite !fget_fdel_other by congruence; reflexivity..|apply nget_del_other, Hne|apply (rk_rep s r H j)].
  Qed.
End DiskRefine.

(* the operations of a thread all address one message: a write whose only
   candidate id is that message's id, and operations on that id *)
Definition owns (id : N) (o : op) : Prop :=
  match o with
  | OWrite _ _ cands _ => cands = [id]
  | OLoad _ => False
  | _ => op_id o = Some id
  end.

(* substrates whose locations are the message ids (redis, cloud): threads on
   different messages, every schedule.  Each thread is, as far as its own
   message and its own results go, some prefix of itself running alone; once it
   has finished it has produced exactly the sequential results; messages nobody
   addresses are untouched. *)
Section KeyedFrame.
  Variables (St Cmd Ans L : Type).
  Variable exec : St -> Cmd -> St * Ans.
  Variable loc : St -> N -> L.
  Variable fp : Cmd -> option (N -> bool).
  Hypothesis exec_local : local_exec exec loc fp.
  Variable prog_of : op -> prog Cmd Ans res.
  Variable view : St -> N -> option entry.
  Hypothesis view_loc : forall s t id, loc s id = loc t id -> view s id = view t id.
  Hypothesis owns_confined : forall id o, owns id o -> confined fp (N.eqb id) (prog_of o).
  Hypothesis owns_starts : forall id o, owns id o -> exists c k, prog_of o = Do c k.

  Theorem frame_interleaved s0 (specs : list (N * list op)) sch :
    NoDup (map fst specs) -> Forall (fun sp => Forall (owns (fst sp)) (snd sp)) specs ->
    let out := sched exec (th_next prog_of) sch s0 (map (fun sp => th_start (snd sp)) specs) in
    (forall i id ops, nth_error specs i = Some (id, ops) ->
       exists n si th,
         asteps exec (th_next prog_of) n s0 (th_start ops) = (si, th) /\
         nth_error (snd out) i = Some th /\
         view (fst out) id = view si id /\
         (th_next prog_of th = None ->
          map fst (th_done th) = ops /\ seq_run St Cmd Ans exec prog_of s0 ops = (si, map snd (th_done th)))) /\
    (forall j, ~ In j (map fst specs) -> view (fst out) j = view s0 j).
  Proof.
    intros Hnd Hown out. rewrite Forall_forall in Hown.
    destruct (interleave_solo St Cmd Ans N L exec loc fp exec_local prog_of
                (N * list op) (fun sp => N.eqb (fst sp)) snd s0 specs) with (sch := sch) as [H1 H2].
    - intros sp Hsp. eapply Forall_impl; [|apply Hown; exact Hsp]. intros o. apply owns_confined.
    - intros i j xi xj k Hne Hi Hj Hk. apply N.eqb_eq in Hk. apply N.eqb_neq. intros E. apply Hne.
      eapply NoDup_map_nth_error; [exact Hnd|exact Hi|exact Hj|congruence].
    - fold out in H1, H2. split.
      + intros i id ops E. destruct (H1 i _ E) as (n & si & th & R1 & R2 & R3 & R4). cbn [fst snd] in *.
        exists n, si, th. split; [exact R1|]. split; [exact R2|]. split; [apply view_loc, R3, N.eqb_refl|].
        apply R4. eapply Forall_impl; [|apply (Hown _ (nth_error_In _ _ E))]. intros o. apply owns_starts.
      + intros j Hj. apply view_loc, H2. intros sp Hsp. apply N.eqb_neq. intros E. apply Hj.
        subst j. apply in_map. exact Hsp.
  Qed.
End KeyedFrame.

Lemma hget_loc s t id : rloc s id = rloc t id -> hget s id = hget t id.
Proof. unfold rloc, hget. intros ->. reflexivity. Qed.

Lemma rexec_local : local_exec rexec rloc rfp.
Proof.
  unfold rloc. split.
  - intros s c f k Hf Hk.
    destruct c as [id e|id ts|id ts|id|id|id l| |[id|]|id|id|]; inversion Hf; subst f; clear Hf;
      apply N.eqb_neq in Hk; cbn [rexec]; unfold hput.
    (* KEYS, HGET on the list key and BLPOP have no footprint; of the others, in
       the order of rcmd: HSETNX writes the hash of id unless the field is set,
       four commands write it always, three only read, DEL deletes it *)
    + destruct (h_env (hget s id)); cbn [fst r_hashes]; [reflexivity|apply nget_set_other, Hk].
    + apply nget_set_other, Hk.
    + apply nget_set_other, Hk.
    + apply nget_set_other, Hk.
    + reflexivity.
    + apply nget_set_other, Hk.
    + reflexivity.
    + reflexivity.
    + apply nget_del_other, Hk.
  - assert (Hset : forall (m1 m2 : amap N rhash) id h k,
               N.eqb id k = true -> alookup N.eqb (aset N.eqb m1 id h) k = alookup N.eqb (aset N.eqb m2 id h) k).
    { intros m1 m2 id h k Hk. apply N.eqb_eq in Hk. subst k. rewrite !nget_set_same. reflexivity. }
    intros s t c f Hf Hag.
    destruct c as [id e|id ts|id ts|id|id|id l| |[id|]|id|id|]; inversion Hf; subst f; clear Hf;
      pose proof (hget_loc s t id (Hag id (N.eqb_refl id))) as Hh; cbn [rexec]; unfold hput; rewrite ?Hh.
    (* the answer is a function of the hash of id, the same on both sides; a
       write puts the same hash at id on both sides *)
    + destruct (h_env (hget t id)); (split; [reflexivity|]); [exact Hag|apply Hset].
    + split; [reflexivity|apply Hset].
    + split; [reflexivity|apply Hset].
    + split; [reflexivity|apply Hset].
    + split; [reflexivity|exact Hag].
    + split; [reflexivity|apply Hset].
    + split; [reflexivity|exact Hag].
    + split; [reflexivity|exact Hag].
    + split; [reflexivity|]. intros k Hk. apply N.eqb_eq in Hk. subst k. cbn [fst r_hashes]. rewrite !nget_del_same. reflexivity.
Qed.

Lemma redis_confined id o : owns id o -> confined rfp (N.eqb id) (redis_prog o).
Proof.
  destruct o; cbn [owns op_id redis_prog]; intros H; try contradiction; try (inversion H; subst).
  - cbn [r_write]. apply conf_same; [reflexivity|]. intros a.
    destruct a as [|[|]| | | | | | |]; try constructor.
    apply conf_same; [reflexivity|]. intros; constructor.
  - apply conf_same; [reflexivity|]. intros; constructor.
  - apply conf_same; [reflexivity|]. intros a. destruct a; constructor.
  - apply conf_same; [reflexivity|]. intros a. apply conf_same; [reflexivity|]. intros; constructor.
  - apply conf_same; [reflexivity|]. intros a.
    destruct a as [| | | | | |[e|] att dl| |]; try constructor.
    destruct dl as [l|]; [|constructor]. destruct (accum_get l (e_rcpts e)); constructor.
  - apply conf_same; [reflexivity|]. intros; constructor.
Qed.

Lemma redis_starts id o : owns id o -> exists c k, redis_prog o = Do c k.
Proof.
  destruct o; cbn [owns redis_prog]; intros H; try contradiction; try (subst; cbn [r_write]); eauto.
Qed.

Lemma redis_view_loc s t id : rloc s id = rloc t id -> redis_view s id = redis_view t id.
Proof. unfold rloc, redis_view. intros ->. reflexivity. Qed.

Lemma cloud_pick_in objs cands id : cloud_pick objs cands = Some id -> In id cands.
Proof.
  induction cands as [|c cs IH]; cbn [cloud_pick]; [discriminate|].
  destruct (amem N.eqb objs c); [intros H; right; apply IH; exact H|intros H; inversion H; left; reflexivity].
Qed.

Lemma cloud_pick_agree o1 o2 cands :
  (forall c, In c cands -> alookup N.eqb o1 c = alookup N.eqb o2 c) -> cloud_pick o1 cands = cloud_pick o2 cands.
Proof.
  induction cands as [|c cs IH]; intros H; cbn [cloud_pick]; [reflexivity|].
  rewrite !nmem_get, (H c (or_introl eq_refl)). rewrite IH; [reflexivity|].
  intros c' Hc'. apply H. right; exact Hc'.
Qed.

Lemma existsb_eqb_In k l : existsb (N.eqb k) l = true <-> In k l.
Proof.
  rewrite existsb_exists. split.
  - intros (x & Hx & E). apply N.eqb_eq in E. subst. exact Hx.
  - intros H. exists k. split; [exact H|apply N.eqb_refl].
Qed.

Lemma cexec_local : local_exec cexec cloc cfp.
Proof.
  unfold cloc. split.
  - intros s c f k. destruct c; cbn [cfp]; intros Hf Hk; inversion Hf; subst f; clear Hf; cbn [cexec];
      try (apply N.eqb_neq in Hk); try reflexivity.
    + destruct (cloud_pick (c_objs s) cands) as [id|] eqn:E; cbn [fst c_objs]; [|reflexivity].
      apply nget_set_other. intros ->. apply cloud_pick_in in E. apply existsb_eqb_In in E. congruence.
    + destruct (alookup N.eqb (c_objs s) id); cbn [fst c_objs]; [apply nget_set_other; exact Hk|reflexivity].
    + destruct (alookup N.eqb (c_objs s) id); cbn [fst c_objs]; [apply nget_del_other; exact Hk|reflexivity].
    + destruct (c_mqfail s) as [|[|] fl]; reflexivity.
  - intros s t c f. destruct c; cbn [cfp]; intros Hf Hag; inversion Hf; subst f; clear Hf; cbn [cexec].
    + rewrite (cloud_pick_agree (c_objs s) (c_objs t) cands)
        by (intros c Hc; apply Hag; apply existsb_eqb_In; exact Hc).
      destruct (cloud_pick (c_objs t) cands) as [id|]; cbn [fst snd c_objs]; (split; [reflexivity|]); [|exact Hag].
      intros k Hk. rewrite !nget_set. destruct (id =? k); [reflexivity|apply Hag; exact Hk].
    + rewrite (Hag id (N.eqb_refl id)). destruct (alookup N.eqb (c_objs t) id); cbn [fst snd c_objs];
        (split; [reflexivity|]); [|exact Hag].
      intros k Hk. apply N.eqb_eq in Hk. subst k. rewrite !nget_set_same. reflexivity.
    + rewrite (Hag id (N.eqb_refl id)). cbn [fst snd]. split; [reflexivity|exact Hag].
    + rewrite (Hag id (N.eqb_refl id)). cbn [fst snd]. split; [reflexivity|exact Hag].
    + rewrite (Hag id (N.eqb_refl id)). destruct (alookup N.eqb (c_objs t) id); cbn [fst snd c_objs];
        (split; [reflexivity|]); [|exact Hag].
      intros k Hk. apply N.eqb_eq in Hk. subst k. rewrite !nget_del_same. reflexivity.
    + split; [destruct (c_mqfail s) as [|[|] ?]; destruct (c_mqfail t) as [|[|] ?]; reflexivity|].
      intros k Hk. discriminate.
Qed.

Lemma cloud_confined mq id o : owns id o -> confined cfp (N.eqb id) (cloud_prog mq o).
Proof.
  destruct o; cbn [owns op_id cloud_prog]; intros H; try contradiction; try (inversion H; subst).
  - eapply conf_do; [reflexivity| |].
    + intros x Hx. cbn [existsb] in Hx. rewrite orb_false_r in Hx. rewrite N.eqb_sym. exact Hx.
    + intros a. destruct a as [|[j|]| | | |]; try constructor.
      destruct mq; [|constructor]. eapply conf_do; [reflexivity|discriminate|]. intros; constructor.
  - apply conf_same; [reflexivity|]. intros a. destruct a; constructor.
  - apply conf_same; [reflexivity|]. intros a.
    destruct a as [| |[[[t a'] d]|]| | |]; try constructor.
    apply conf_same; [reflexivity|]. intros b. destruct b; constructor.
  - apply conf_same; [reflexivity|]. intros a.
    destruct a as [| |[[[t a'] d]|]| | |]; try constructor.
    apply conf_same; [reflexivity|]. intros b. destruct b; constructor.
  - apply conf_same; [reflexivity|]. intros a.
    destruct a as [| | |[[[[e t] a'] d]|]| |]; try constructor.
    destruct (accum_get _ _); constructor.
  - apply conf_same; [reflexivity|]. intros a. destruct a; constructor.
Qed.

Lemma cloud_starts mq o : exists c k, cloud_prog mq o = Do c k.
Proof. destruct o; cbn [cloud_prog]; eauto. Qed.

Lemma cloud_view_loc s t id : cloc s id = cloc t id -> cloud_view s id = cloud_view t id.
Proof. unfold cloc, cloud_view. intros ->. reflexivity. Qed.

Definition dfoot (id : N) (tmps : list N) (q : path) : bool :=
  match q with
  | PEnv c | PMeta c => N.eqb id c
  | PTmp t => existsb (N.eqb t) tmps
  end.

Section DiskFrame.
  Variable enc_env : envelope -> bytes.
  Variable dec_env : bytes -> option envelope.
  Variable enc_meta : meta -> bytes.
  Variable dec_meta : bytes -> option meta.
  Variable chunk : wcfg.
  Notation dprog_of := (disk_prog enc_env dec_env enc_meta dec_meta chunk).

  Lemma path_eqb_sub F p : F p = true -> forall x, path_eqb p x = true -> F x = true.
  Proof. intros H x E. apply path_eqb_eq in E. subst. exact H. Qed.

  Lemma confined_write_loop F t p k fuel : forall off rest,
    F p = true -> F (PTmp t) = true -> confined dfp F k ->
    confined dfp F (write_loop chunk fuel t off rest p k).
  Proof.
    assert (Hren : confined dfp F k -> F p = true -> F (PTmp t) = true ->
                   confined dfp F (Do (CRename t p) (fun _ => Do (CClose t) (fun _ => k)))).
    { intros Hk Hp Ht. eapply conf_do; [reflexivity| |intros; eapply conf_do; [reflexivity|apply path_eqb_sub; exact Ht|intros; exact Hk]].
      intros x Hx. apply orb_prop in Hx as [Hx|Hx]; [apply (path_eqb_sub F (PTmp t) Ht x Hx)|apply (path_eqb_sub F p Hp x Hx)]. }
    assert (Hcl : forall r : res, F (PTmp t) = true -> confined dfp F (Do (CClose t) (fun _ : dans => Ret r) : dprog)).
    { intros r Ht. eapply conf_do; [reflexivity|apply path_eqb_sub; exact Ht|intros; constructor]. }
    (* both fuel cases run the same commands up to the last piece *)
    induction fuel as [|f IH]; intros off rest Hp Ht Hk; cbn [write_loop];
      (destruct (firstn (w_chunk chunk) rest) as [|x l];
       [eapply conf_do; [reflexivity|apply path_eqb_sub; exact Ht|intros; apply Hcl; exact Ht]|]);
      (destruct (written chunk t off (length (x :: l))) as [w|]; [|apply Hcl; exact Ht]);
      (eapply conf_do; [reflexivity|apply path_eqb_sub; exact Ht|]); intros a;
      (destruct (skipn w rest); [apply Hren; assumption|]).
    - constructor.
    - apply IH; assumption.
  Qed.

  Lemma confined_dump F data t p k :
    F p = true -> F (PTmp t) = true -> confined dfp F k -> confined dfp F (dump chunk data p t k).
  Proof.
    intros Hp Ht Hk. unfold dump. eapply conf_do; [reflexivity|apply path_eqb_sub; exact Ht|].
    intros a. destruct a; try constructor; apply confined_write_loop; assumption.
  Qed.

  Lemma confined_update F id tmps f result :
    F (PMeta id) = true -> (forall t, In t tmps -> F (PTmp t) = true) ->
    confined dfp F (update_meta enc_meta dec_meta chunk id tmps f result).
  Proof.
    intros Hm Ht. unfold update_meta, read_meta.
    eapply conf_do; [reflexivity|apply path_eqb_sub; exact Hm|]. intros a.
    destruct a as [| | |[b|]|]; try constructor. destruct (dec_meta b); [|constructor].
    destruct tmps as [|t tmps]; [constructor|].
    apply confined_dump; [exact Hm|apply Ht; left; reflexivity|constructor].
  Qed.

  Lemma disk_confined id tmps o :
    owns id o -> (forall t, In t (op_tmps o) -> In t tmps) -> confined dfp (dfoot id tmps) (dprog_of o).
  Proof.
    assert (He : dfoot id tmps (PEnv id) = true) by apply N.eqb_refl.
    assert (Hm : dfoot id tmps (PMeta id) = true) by apply N.eqb_refl.
    assert (Htm : forall t, In t tmps -> dfoot id tmps (PTmp t) = true) by (intros t Ht; apply existsb_eqb_In; exact Ht).
    destruct o; cbn [owns op_id disk_prog op_tmps]; intros H Hsub; try contradiction; try (inversion H; subst).
    - cbn [d_write]. eapply conf_do; [reflexivity|apply path_eqb_sub; exact He|]. intros a.
      destruct a as [| |[|]| |]; try constructor;
        (destruct tmps0 as [|t1 [|t2 tmps0]]; try constructor;
         apply confined_dump; [exact He|apply Htm, Hsub; left; reflexivity|];
         apply confined_dump; [exact Hm|apply Htm, Hsub; right; left; reflexivity|constructor]).
    - apply confined_update; [exact Hm|intros t Ht; apply Htm, Hsub, Ht].
    - apply confined_update; [exact Hm|intros t Ht; apply Htm, Hsub, Ht].
    - apply confined_update; [exact Hm|intros t Ht; apply Htm, Hsub, Ht].
    - unfold d_get, read_meta. eapply conf_do; [reflexivity|apply path_eqb_sub; exact Hm|]. intros a.
      destruct a as [| | |[b|]|]; try constructor. destruct (dec_meta b); [|constructor].
      eapply conf_do; [reflexivity|apply path_eqb_sub; exact He|]. intros a.
      destruct a as [| | |[b'|]|]; try constructor. destruct (dec_env b'); [|constructor].
      destruct (accum_get _ _); constructor.
    - eapply conf_do; [reflexivity|apply path_eqb_sub; exact He|]. intros a.
      eapply conf_do; [reflexivity|apply path_eqb_sub; exact Hm|]. intros; constructor.
  Qed.

  Lemma disk_starts id o : owns id o -> exists c k, dprog_of o = Do c k.
  Proof.
    destruct o; cbn [owns disk_prog]; intros H; try contradiction; try (subst; cbn [d_write]);
      unfold update_meta, d_get, read_meta; eauto.
  Qed.

  (* threads = (message id, the temp names its operations may be handed, its operations) *)
  Definition dspec := (N * list N * list op)%type.
  Definition dspec_ok (sp : dspec) : Prop :=
    let '(id, tmps, ops) := sp in
    Forall (fun o => owns id o /\ forall t, In t (op_tmps o) -> In t tmps) ops.

  Theorem frame_interleaved_disk s0 (specs : list dspec) sch :
    NoDup (map (fun sp => fst (fst sp)) specs) ->
    (forall i j spi spj t, i <> j -> nth_error specs i = Some spi -> nth_error specs j = Some spj ->
                           In t (snd (fst spi)) -> ~ In t (snd (fst spj))) ->
    Forall dspec_ok specs ->
    let out := sched dexec (th_next dprog_of) sch s0 (map (fun sp => th_start (snd sp)) specs) in
    (forall i id tmps ops, nth_error specs i = Some (id, tmps, ops) ->
       exists n si th,
         asteps dexec (th_next dprog_of) n s0 (th_start ops) = (si, th) /\
         nth_error (snd out) i = Some th /\
         fget (fst out) (PEnv id) = fget si (PEnv id) /\ fget (fst out) (PMeta id) = fget si (PMeta id) /\
         disk_view dec_env dec_meta (fst out) id = disk_view dec_env dec_meta si id /\
         (th_next dprog_of th = None ->
          map fst (th_done th) = ops /\ seq_run fs dcmd dans dexec dprog_of s0 ops = (si, map snd (th_done th)))) /\
    (forall q, (forall sp, In sp specs -> dfoot (fst (fst sp)) (snd (fst sp)) q = false) -> fget (fst out) q = fget s0 q).
  Proof.
    intros Hnd Htd Hok out. rewrite Forall_forall in Hok.
    destruct (interleave_solo fs dcmd dans path (option bytes) dexec dloc dfp dexec_local dprog_of
                dspec (fun sp => dfoot (fst (fst sp)) (snd (fst sp))) snd s0 specs) with (sch := sch) as [H1 H2].
    - intros [[id tmps] ops] Hsp. eapply Forall_impl; [|apply (Hok _ Hsp)].
      intros o [Ho Ht]. apply disk_confined; assumption.
    - intros i j [[a ta] oa] [[b tb] ob] k Hne Ei Ej Hk. cbn [fst snd] in *.
      assert (Hab : a <> b).
      { intros E. apply Hne. eapply (NoDup_map_nth_error (fun sp : dspec => fst (fst sp))); eassumption. }
      destruct k as [c|c|t]; cbn [dfoot] in *.
      + apply N.eqb_eq in Hk. apply N.eqb_neq. congruence.
      + apply N.eqb_eq in Hk. apply N.eqb_neq. congruence.
      + apply existsb_eqb_In in Hk. destruct (existsb (N.eqb t) tb) eqn:E; [|reflexivity].
        apply existsb_eqb_In in E. destruct (Htd i j _ _ t Hne Ei Ej Hk E).
    - fold out in H1, H2. split; [|exact H2].
      intros i id tmps ops E. destruct (H1 i _ E) as (n & si & th & R1 & R2 & R3 & R4). cbn [fst snd] in *.
      assert (Le : fget (fst out) (PEnv id) = fget si (PEnv id)) by (apply R3; apply N.eqb_refl).
      assert (Lm : fget (fst out) (PMeta id) = fget si (PMeta id)) by (apply R3; apply N.eqb_refl).
      exists n, si, th. repeat split; try assumption; [apply disk_view_ext; assumption|..];
        apply R4; try assumption; (eapply Forall_impl; [|apply (Hok _ (nth_error_In _ _ E))]);
        intros o [Hoo _]; eapply disk_starts; exact Hoo.
  Qed.
End DiskFrame.

Definition is_read (o : op) : bool := match o with OLoad _ | OGet _ => true | _ => false end.

Lemma redis_read_ro o : is_read o = true -> ro_prog rstate rcmd rans rexec (redis_prog o).
Proof.
  destruct o; cbn [is_read]; try discriminate; intros _; cbn [redis_prog].
  - apply rop_do; [reflexivity|]. intros a. destruct a; try apply rop_ret.
    generalize (@nil (N * N)) as acc. induction l as [|k ks IH]; intros acc; cbn [r_load_loop]; [apply rop_ret|].
    destruct k as [id|]; [|apply IH].
    apply rop_do; [reflexivity|]. intros a. destruct a as [| | |[t|]| | | | |]; try apply rop_ret; apply IH.
  - apply rop_do; [reflexivity|]. intros a. destruct a as [| | | | | |[e|] att dl| |]; try apply rop_ret.
    destruct dl as [l|]; [|apply rop_ret]. destruct (accum_get l (e_rcpts e)); apply rop_ret.
Qed.

Lemma cloud_read_ro mq o : is_read o = true -> ro_prog cstate ccmd cans cexec (cloud_prog mq o).
Proof.
  destruct o; cbn [is_read]; try discriminate; intros _; cbn [cloud_prog].
  - apply rop_do; [reflexivity|]. intros a. destruct a; apply rop_ret.
  - apply rop_do; [reflexivity|]. intros a. destruct a as [| | |[[[[e t] a'] d]|]| |]; try apply rop_ret.
    destruct (accum_get _ _); apply rop_ret.
Qed.

Section DiskReaders.
  Variable enc_env : envelope -> bytes.
  Variable dec_env : bytes -> option envelope.
  Variable enc_meta : meta -> bytes.
  Variable dec_meta : bytes -> option meta.
  Variable chunk : wcfg.
  Notation dprog_of := (disk_prog enc_env dec_env enc_meta dec_meta chunk).

  Lemma disk_read_ro o : is_read o = true -> ro_prog fs dcmd dans dexec (dprog_of o).
  Proof.
    destruct o; cbn [is_read]; try discriminate; intros _; apply readonly_ro.
    - apply (readonly_load enc_env dec_env enc_meta dec_meta chunk).
    - apply readonly_get.
  Qed.

End DiskReaders.

