(* Lemmas about the primitives of lib/Bytes.v: byte-string equality and prefixes, decimal
   digits, LF-free strings, split_lf / unraw, take_line, strip_cr, join. *)
From Coq Require Import List NArith Bool.
From SV Require Import lib.Bytes.
Import ListNotations.
Open Scope N_scope.

Lemma beqb_eq : forall a b, beqb a b = true <-> a = b.
Proof.
  induction a as [|x a IH]; destruct b as [|y b]; cbn; split; intro H; try reflexivity; try discriminate.
  - apply andb_true_iff in H. destruct H as [H1 H2]. apply N.eqb_eq in H1. apply IH in H2. subst. reflexivity.
  - inversion H; subst. rewrite N.eqb_refl. cbn. apply IH. reflexivity.
Qed.

Lemma beqb_refl : forall a, beqb a a = true.
Proof. intros a. apply beqb_eq. reflexivity. Qed.

Lemma starts_with_app : forall p s, starts_with p (p ++ s) = true.
Proof. induction p as [|x p IH]; intros s; [reflexivity|]. cbn [starts_with app]. rewrite IH, N.eqb_refl. reflexivity. Qed.

Lemma starts_with_app_long : forall p a b, (length p <= length a)%nat ->
  starts_with p (a ++ b) = starts_with p a.
Proof.
  induction p as [|x p IH]; intros a b H; [reflexivity|].
  destruct a as [|y a]; [inversion H|]. cbn [starts_with app].
  rewrite (IH a b (le_S_n _ _ H)). reflexivity.
Qed.

Lemma is_digit_48 : forall d, d < 10 -> is_digit (48 + d) = true.
Proof.
  intros d H. unfold is_digit. apply andb_true_iff. split; apply N.leb_le.
  - apply N.le_add_r.
  - apply (N.add_le_mono_l d 9 48), N.lt_succ_r, H.
Qed.

Lemma dec_val_acc_app : forall p a r, dec_val_acc a (p ++ r) = dec_val_acc (dec_val_acc a p) r.
Proof. induction p as [|d p IH]; intros a r; [reflexivity|]. cbn [app dec_val_acc]. apply IH. Qed.

(* LF-free byte strings, as a proposition and as a test; statements about lines
   are made with the proposition, the test serves where a file computes. *)
Definition nolf (l : bytes) : Prop := Forall (fun b => b <> 10) l.
Definition nolfb (l : bytes) : bool := forallb (fun b => negb (b =? 10)) l.

Lemma nolfb_iff l : nolfb l = true <-> nolf l.
Proof.
  unfold nolfb, nolf. rewrite forallb_forall, Forall_forall.
  split; intros H b Hb; specialize (H b Hb).
  - intros ->. discriminate H.
  - apply negb_true_iff, N.eqb_neq, H.
Qed.

Lemma nolfb_all_iff ls : forallb nolfb ls = true <-> Forall nolf ls.
Proof.
  rewrite forallb_forall, Forall_forall. split; intros H l Hl; apply nolfb_iff, H, Hl.
Qed.

Lemma nolf_app : forall a b, nolf (a ++ b) <-> nolf a /\ nolf b.
Proof. intros. unfold nolf. apply Forall_app. Qed.

Lemma ge32_nolf s : Forall (fun b => 32 <= b) s -> nolf s.
Proof. apply Forall_impl. intros b H ->. exact (H eq_refl). Qed.

Lemma nolf_snoc_cr l : nolf l -> nolf (l ++ [13]).
Proof. intro H. apply nolf_app. split; [exact H|]. repeat constructor. discriminate. Qed.

Lemma crlf_snoc (l s : bytes) : l ++ CRLF ++ s = (l ++ [13]) ++ 10 :: s.
Proof. rewrite <- app_assoc. reflexivity. Qed.

Lemma split_lf_cons b s : split_lf (b :: s) =
  if b =? 10 then ([] :: fst (split_lf s), snd (split_lf s))
  else match fst (split_lf s) with
       | [] => ([], b :: snd (split_lf s))
       | l :: ls' => ((b :: l) :: ls', snd (split_lf s))
       end.
Proof. cbn [split_lf]. destruct (split_lf s) as [ls t]. reflexivity. Qed.

Lemma unraw_cons l ls : unraw (l :: ls) = l ++ 10 :: unraw ls.
Proof. unfold unraw. cbn [map concat]. rewrite <- app_assoc. reflexivity. Qed.

Lemma unraw_app : forall a b, unraw (a ++ b) = unraw a ++ unraw b.
Proof. intros. unfold unraw. rewrite map_app, concat_app. reflexivity. Qed.

Lemma split_lf_sound : forall s ls t, split_lf s = (ls, t) ->
  unraw ls ++ t = s /\ Forall nolf ls /\ nolf t.
Proof.
  induction s as [|b s IH]; intros ls t H.
  - injection H as <- <-. repeat split; constructor.
  - rewrite split_lf_cons in H. destruct (IH _ _ (surjective_pairing _)) as (E & Hl & Ht).
    destruct (N.eqb_spec b 10) as [->|Hb].
    + injection H as <- <-. rewrite unraw_cons. cbn [app].
      split; [f_equal; exact E|]. split; [constructor; [constructor|]|]; assumption.
    + destruct (fst (split_lf s)) as [|l ls']; injection H as <- <-.
      * cbn [unraw map concat app] in *.
        split; [f_equal; exact E|]. split; constructor; assumption.
      * rewrite unraw_cons in *. cbn [app]. inversion Hl; subst.
        split; [f_equal; exact E|]. split; [constructor; [constructor|]|]; assumption.
Qed.

Lemma split_lf_inv : forall s, unraw (fst (split_lf s)) ++ snd (split_lf s) = s.
Proof. intro s. apply (split_lf_sound s _ _ (surjective_pairing _)). Qed.

Lemma lines_prefix : forall s pre rest, fst (split_lf s) = pre ++ rest ->
  s = unraw pre ++ unraw rest ++ snd (split_lf s).
Proof. intros s pre rest E. rewrite <- (split_lf_inv s) at 1. rewrite E, unraw_app, <- app_assoc. reflexivity. Qed.

Lemma split_lf_nolf : forall s, nolf s -> split_lf s = ([], s).
Proof.
  induction s as [|b s IH]; intro H; [reflexivity|].
  inversion H as [|? ? Hb Hs]; subst. rewrite split_lf_cons, (IH Hs).
  destruct (N.eqb_spec b 10); [contradiction|reflexivity].
Qed.

Definition merge_split (p q : list bytes * bytes) : list bytes * bytes :=
  match fst q with
  | [] => (fst p, snd p ++ snd q)
  | l1 :: lb' => (fst p ++ (snd p ++ l1) :: lb', snd q)
  end.

Lemma split_lf_merge a b : split_lf (a ++ b) = merge_split (split_lf a) (split_lf b).
Proof.
  induction a as [|x a IH].
  - unfold merge_split. cbn [app split_lf fst snd].
    destruct (split_lf b) as [[|l lb] tb]; reflexivity.
  - cbn [app]. rewrite !split_lf_cons, IH. unfold merge_split.
    destruct (split_lf a) as [la ta]. destruct (split_lf b) as [lb tb]. cbn [fst snd].
    destruct (x =? 10).
    + destruct lb; reflexivity.
    + destruct la as [|l la]; destruct lb as [|l1 lb]; reflexivity.
Qed.

Lemma split_lf_line : forall l s, nolf l ->
  split_lf (l ++ 10 :: s) = (l :: fst (split_lf s), snd (split_lf s)).
Proof.
  intros l s H. rewrite split_lf_merge, (split_lf_nolf l H), split_lf_cons.
  unfold merge_split. cbn. rewrite app_nil_r. reflexivity.
Qed.

Lemma split_lf_snoc_lf s :
  split_lf (s ++ [10]) = (fst (split_lf s) ++ [snd (split_lf s)], []).
Proof. rewrite split_lf_merge. unfold merge_split. cbn. rewrite app_nil_r. reflexivity. Qed.

Lemma split_lf_unraw_app : forall ls s, Forall nolf ls ->
  split_lf (unraw ls ++ s) = (ls ++ fst (split_lf s), snd (split_lf s)).
Proof.
  induction ls as [|l ls IH]; intros s H.
  - exact (surjective_pairing (split_lf s)).
  - inversion H as [|? ? Hl Hls]; subst.
    rewrite unraw_cons, <- app_assoc. cbn [app]. rewrite split_lf_line, (IH s Hls) by assumption. reflexivity.
Qed.

Lemma split_lf_unraw ls t : Forall nolf ls -> nolf t -> split_lf (unraw ls ++ t) = (ls, t).
Proof.
  intros Hl Ht. rewrite (split_lf_unraw_app ls t Hl), (split_lf_nolf t Ht). cbn. rewrite app_nil_r. reflexivity.
Qed.

Lemma split_lf_app : forall a x ls t, split_lf a = (ls, t) ->
  split_lf (a ++ x) = (ls ++ fst (split_lf (t ++ x)), snd (split_lf (t ++ x))).
Proof.
  intros a x ls t H. destruct (split_lf_sound a ls t H) as [H1 [H2 H3]].
  rewrite <- H1 at 1. rewrite <- app_assoc. apply split_lf_unraw_app. assumption.
Qed.

Lemma unraw_nonempty : forall pre, pre <> [] -> unraw pre <> [].
Proof.
  intros [|l pre] H; [contradiction|]. rewrite unraw_cons. intro E. apply app_eq_nil in E. destruct E as [_ E]. discriminate.
Qed.

Lemma take_line_spec s :
  match take_line s with
  | Some (l, r) => s = l ++ 10 :: r /\ nolf l
  | None => nolf s
  end.
Proof.
  induction s as [|x s IH]; [constructor|]. cbn [take_line].
  destruct (N.eqb_spec x 10) as [->|Hx]; [split; [reflexivity|constructor]|].
  destruct (take_line s) as [[l r]|].
  - destruct IH as [-> Hl]. split; [reflexivity|constructor; assumption].
  - constructor; assumption.
Qed.

Lemma take_line_line l r : nolf l -> take_line (l ++ 10 :: r) = Some (l, r).
Proof.
  induction 1 as [|b l Hb _ IH]; [reflexivity|]. cbn [app take_line]. rewrite IH.
  destruct (N.eqb_spec b 10); [contradiction|reflexivity].
Qed.

Lemma take_line_app a b :
  take_line (a ++ b) =
  match take_line a with
  | Some (l, r) => Some (l, r ++ b)
  | None => match take_line b with Some (l, r) => Some (a ++ l, r) | None => None end
  end.
Proof.
  induction a as [|x a IH]; cbn [app take_line].
  - destruct (take_line b) as [[l r]|]; reflexivity.
  - destruct (x =? 10); [reflexivity|]. rewrite IH.
    destruct (take_line a) as [[l r]|]; [reflexivity|]. destruct (take_line b) as [[l r]|]; reflexivity.
Qed.

Lemma strip_cr_cons : forall a l, a <> 13 -> strip_cr (a :: l) = a :: strip_cr l.
Proof. intros a [|b l] H; [|reflexivity]. cbn. destruct (N.eqb_spec a 13); [contradiction|reflexivity]. Qed.

Lemma strip_cr_cons2 : forall x y l, strip_cr (x :: y :: l) = x :: strip_cr (y :: l).
Proof. reflexivity. Qed.

Lemma strip_cr_snoc : forall l, strip_cr (l ++ [13]) = l.
Proof.
  induction l as [|x [|y l] IH]; [reflexivity..|].
  cbn [app] in *. rewrite strip_cr_cons2, IH. reflexivity.
Qed.

Lemma join_cons : forall sep l L, L <> [] -> join sep (l :: L) = l ++ sep ++ join sep L.
Proof. intros sep l L H. destruct L; [contradiction|reflexivity]. Qed.

Lemma join_snoc : forall sep L l, L <> [] -> join sep (L ++ [l]) = join sep L ++ sep ++ l.
Proof.
  induction L as [|a [|b L] IH]; intros l H; [contradiction|reflexivity|].
  change (join sep (a :: (b :: L) ++ [l]) = join sep (a :: b :: L) ++ sep ++ l).
  rewrite (join_cons sep a (b :: L)), join_cons, IH, <- !app_assoc by discriminate.
  reflexivity.
Qed.
