(* Proofs for property C09 (segmentation / pipelining independence of the server):
   model/ServerStream.v on top of model/Server.v (C07) and model/Data.v (C05).
   The incremental consumers (IO.recv_line, DataReader.recv with the size limit after the repair
   of D13) are shown to be Data_lemmas.feed of their batch specifications; that the outcome is the
   specification of the whole stream and that no piece too many is read are then instances.
   The server loop is cut into rounds (`cmd`: what one command line does to the stream,
   `emit`: what becomes of the session); the inductions on it (simulation of two stream
   representations, fuel, connection with C07's run_loop) each need one fact about `cmd`. *)
From Coq Require Import List NArith Bool Arith Lia.
From SV Require Import lib.Bytes model.Data model.Server model.ServerStream proof.List_lemmas proof.Data_lemmas.
From SV Require proof.Server_lemmas.
Import ListNotations.
Open Scope N_scope.
Local Arguments skipn : simpl never.   (* `injection` simplifies: after_eod is to stay a skipn *)

Definition repr (s1 : istream) (s2 : bytes) : Prop :=
  Forall nonempty (snd s1) /\ fst s1 ++ concat (snd s1) = s2.

Definition agree {A S1 S2 : Type} (R : S1 -> S2 -> Prop) (x : option (A * S1)) (y : option (A * S2)) : Prop :=
  match x, y with
  | None, None => True
  | Some (a, s1), Some (a', s2) => a = a' /\ R s1 s2
  | _, _ => False
  end.

(* Data_lemmas.feed, in the form the simulation of the server loop asks for *)
Lemma feed_repr {A} (spec : bytes -> option (A * bytes)) s1 s2 :
  (forall s x a r, spec s = Some (a, r) -> spec (s ++ x) = Some (a, r ++ x)) ->
  repr s1 s2 -> agree repr (feed spec (fst s1) (snd s1)) (spec s2).
Proof.
  intros spec_app [NE <-]. rewrite <- (feed_batch _ _ spec_app _ _ NE).
  destruct (feed spec (fst s1) (snd s1)) as [[a [r rest]]|] eqn:F; [|exact I].
  destruct (feed_consumption _ _ _ _ _ _ _ F) as (used & E & _). rewrite E in NE. apply Forall_app in NE.
  split; [reflexivity|]. split; [apply NE|reflexivity].
Qed.

Lemma line_spec_line l r : nolf l = true -> line_spec (l ++ 10 :: r) = Some (strip_cr l, r).
Proof. intros H. unfold line_spec. rewrite take_line_line by apply nolf_iff, H. reflexivity. Qed.

Lemma line_spec_app_some s x l r : line_spec s = Some (l, r) -> line_spec (s ++ x) = Some (l, r ++ x).
Proof.
  unfold line_spec. rewrite take_line_app. destruct (take_line s) as [[raw rest]|]; [|discriminate].
  intros H. injection H as <- <-. reflexivity.
Qed.

Lemma line_spec_shorter s l r : line_spec s = Some (l, r) -> (length r < length s)%nat.
Proof.
  unfold line_spec. pose proof (take_line_spec s) as T. destruct (take_line s) as [[raw rest]|]; [|discriminate].
  intros H. injection H as _ <-. destruct T as [-> _]. rewrite app_length. cbn [length]. lia.
Qed.

Lemma recv_line_feed sock : forall buf,
  recv_line buf sock = match feed line_spec buf sock with Some (l, (rb, s)) => LLine l rb s | None => LLost end.
Proof.
  induction sock as [|c cs IH]; intros buf; cbn [recv_line feed]; unfold line_spec at 1;
    destruct (take_line buf) as [[raw rest]|]; try reflexivity.
  destruct c; [reflexivity|apply IH].
Qed.

Lemma recv_line_batch chunks buf : Forall nonempty chunks ->
  line_outcome (recv_line buf chunks) = line_spec (buf ++ concat chunks).
Proof.
  intros NE. rewrite recv_line_feed, <- (feed_batch _ _ line_spec_app_some chunks buf NE).
  destruct (feed line_spec buf chunks) as [[l [rb s]]|]; reflexivity.
Qed.

Lemma recv_line_consumption chunks buf l rb rest :
  recv_line buf chunks = LLine l rb rest ->
  exists used, chunks = used ++ rest
    /\ line_spec (buf ++ concat used) = Some (l, rb)
    /\ (used = [] \/ line_spec (buf ++ concat (removelast used)) = None).
Proof.
  rewrite recv_line_feed. intros H. apply (feed_consumption _ line_spec).
  destruct (feed line_spec buf chunks) as [[l' [rb' s]]|]; [injection H as -> -> ->; reflexivity|discriminate].
Qed.

(* what Data_lemmas.read_spec_sound and read_spec_complete say of the lines ls in front of the
   end-of-data line *)
Definition content (ls : list bytes) : bytes := concat (map (fun l => undot (l ++ [10])) ls).
Definition no_eod (ls : list bytes) : bool := forallb (fun l => negb (is_eod (l ++ [10]))) ls.

Lemma read_spec_lim_complete mx ls e rest :
  forallb nolf ls = true -> nolf e = true -> no_eod ls = true -> is_eod (e ++ [10]) = true ->
  read_spec_lim mx (unraw ls ++ (e ++ [10]) ++ rest) =
  Some (if Data.too_big mx (N.of_nat (length (unraw ls ++ e ++ [10]))) then None else Some (content ls), rest).
Proof.
  intros Hl He Hn Hd. unfold read_spec_lim. rewrite (read_spec_complete ls e rest Hl He Hn Hd).
  rewrite (app_assoc (unraw ls)), app_length, Nat.add_sub. destruct (Data.too_big mx _); reflexivity.
Qed.

Definition rest_of (s : bytes) : option bytes :=
  match read_spec s with Some (_, r) => Some r | None => None end.

Lemma rest_of_lim m s : rest_of s = match read_spec_lim m s with Some (_, r) => Some r | None => None end.
Proof. unfold rest_of, read_spec_lim. destruct (read_spec s) as [[d r]|]; [destruct (Data.too_big m _)|]; reflexivity. Qed.

Lemma read_spec_lim_shorter mx s d r : read_spec_lim mx s = Some (d, r) -> (length r < length s)%nat.
Proof.
  unfold read_spec_lim. destruct (read_spec s) as [[d' r']|] eqn:E; [|discriminate].
  apply read_spec_shorter in E. destruct (Data.too_big mx _); intros H; injection H as _ <-; exact E.
Qed.

Lemma read_spec_lim_app m s x d r : read_spec_lim m s = Some (d, r) -> read_spec_lim m (s ++ x) = Some (d, r ++ x).
Proof.
  unfold read_spec_lim. destruct (read_spec s) as [[d' r']|] eqn:E; [|discriminate].
  rewrite (read_spec_app_some _ x _ _ E).
  replace (length (s ++ x) - length (r' ++ x))%nat with (length s - length r')%nat by (rewrite !app_length; lia).
  destruct (Data.too_big m _); intros H; injection H as <- <-; reflexivity.
Qed.

Lemma rest_drop_lines t x : read_spec t = None -> rest_of (t ++ x) = rest_of (snd (split_lf t) ++ x).
Proof.
  intros H. destruct (split_lf_spec t) as (Et & Hl & _). rewrite read_spec_unfold in H. unfold rest_of.
  rewrite Et at 1. rewrite <- app_assoc, (read_spec_lines _ _ Hl).
  - destruct (read_spec (snd (split_lf t) ++ x)) as [[d r]|]; reflexivity.
  - destruct (scan (fst (split_lf t))) as [[d r]|]; [discriminate|reflexivity].
Qed.

Lemma trim_batch t : eod (batch t) = None -> trim (batch t) = batch (snd (split_lf t)).
Proof.
  destruct (split_lf_spec t) as (_ & _ & Ht).
  rewrite (batch_closed_form t), (batch_closed_form (snd (split_lf t))).
  rewrite (split_lf_nolf _ Ht). cbn [fst snd eod]. intros H. unfold trim. cbn [idx lines eod].
  rewrite H. cbn [app length find_eod done_lines]. f_equal.
  rewrite skipn_app, <- (done_lines_length (fst (split_lf t))), skipn_all, Nat.sub_diag. reflexivity.
Qed.

Lemma too_big_mono m a b : a <= b -> Data.too_big m a = true -> Data.too_big m b = true.
Proof.
  unfold Data.too_big. destruct m as [m|]; [|discriminate]. intros L H.
  apply andb_true_iff in H. destruct H as [H0 H]. apply N.ltb_lt in H.
  rewrite H0. apply N.ltb_lt. lia.
Qed.

(* the reader after the bytes s (state batch s, size = length s) tests what the specification says of s *)
Lemma reader_state m s :
  read_spec_lim m s =
  match eod (batch s) with
  | Some e => let '(d, rb) := return_all (batch s) e in
              Some (if Data.too_big m (msg_size (N.of_nat (length s)) (batch s)) then None else Some d, rb)
  | None => None
  end.
Proof.
  unfold read_spec_lim, msg_size. rewrite batch_read. destruct (eod (batch s)) as [e|]; [|reflexivity].
  unfold return_all, after_eod. cbn [option_map]. rewrite Nat2N.inj_sub. destruct (Data.too_big m _); reflexivity.
Qed.

Definition reader_result (o : option (option bytes * istream)) : read_result :=
  match o with
  | Some (Some d, (rb, sock)) => DOk d rb sock
  | Some (None, (rb, sock)) => DTooBig rb sock
  | None => DLost
  end.

(* the bytes s with which the size test has failed are "over the limit as seen from t" when,
   whatever follows, the message is too big and what is left behind its end-of-data line can be
   read off t as well as off s *)
Definition over (m : option N) (t s : bytes) : Prop :=
  forall x, read_spec_lim m (s ++ x) = match rest_of (t ++ x) with Some r => Some (None, r) | None => None end.

(* the size of the message is at least what was counted when the test failed *)
Lemma too_big_stays m s : Data.too_big m (msg_size (N.of_nat (length s)) (batch s)) = true -> over m s s.
Proof.
  intros TB x. unfold read_spec_lim, rest_of. destruct (read_spec (s ++ x)) as [[d r]|] eqn:R; [|reflexivity].
  enough (L : msg_size (N.of_nat (length s)) (batch s) <= N.of_nat (length (s ++ x) - length r))
    by (rewrite (too_big_mono m _ _ L TB); reflexivity).
  unfold msg_size. pose proof (batch_read s) as B. destruct (eod (batch s)) as [e|].
  - rewrite (read_spec_app_some _ x _ _ B) in R. injection R as _ <-.
    unfold after_eod. rewrite !app_length. lia.
  - pose proof (read_spec_ends_behind _ _ _ _ B R). rewrite app_length. lia.
Qed.

Lemma discard_head m t s : over m t s ->
  read_spec_lim m s = match eod (batch t) with Some e => Some (None, after_eod (batch t) e) | None => None end.
Proof.
  intros H. specialize (H []). rewrite !app_nil_r in H. rewrite H. unfold rest_of. rewrite batch_read.
  destruct (eod (batch t)); reflexivity.
Qed.

(* _discard_message works on a trimmed state: that of s with the finished lines dropped *)
Lemma discard_feed m sock : forall t s, over m t s ->
  discard_message (batch t) sock = reader_result (feed (read_spec_lim m) s sock).
Proof.
  induction sock as [|c cs IH]; intros t s H; cbn [discard_message feed]; rewrite (discard_head m t s H);
    destruct (eod (batch t)) as [e|] eqn:E; try reflexivity.
  destruct c as [|b c]; [reflexivity|]. rewrite (trim_batch _ E), <- batch_app. apply IH.
  intros x. rewrite <- !app_assoc, H. rewrite (rest_drop_lines t) by (rewrite batch_read, E; reflexivity). reflexivity.
Qed.

Lemma recv_loop_lim_feed m sock : forall s,
  recv_loop_lim m (N.of_nat (length s)) (batch s) sock = reader_result (feed (read_spec_lim m) s sock).
Proof.
  induction sock as [|c cs IH]; intros s; cbn [recv_loop_lim];
    destruct (Data.too_big m (msg_size _ (batch s))) eqn:TB.
  1,3: apply discard_feed, too_big_stays, TB.
  all: cbn [feed]; rewrite reader_state, TB;
    destruct (eod (batch s)) as [e|]; [destruct (return_all (batch s) e); reflexivity|].
  - reflexivity.
  - destruct c as [|b c]; [reflexivity|]. rewrite <- batch_app, <- Nat2N.inj_add, <- app_length. apply IH.
Qed.

Lemma dr_recv_lim_feed m buf sock :
  dr_recv_lim m buf sock = reader_result (feed (read_spec_lim m) buf sock).
Proof. apply recv_loop_lim_feed. Qed.

Lemma dr_recv_lim_batch m buf chunks : Forall nonempty chunks ->
  read_outcome (dr_recv_lim m buf chunks) = read_spec_lim m (buf ++ concat chunks).
Proof.
  intros NE. rewrite dr_recv_lim_feed, <- (feed_batch _ _ (read_spec_lim_app m) chunks buf NE).
  destruct (feed (read_spec_lim m) buf chunks) as [[[d|] [rb s]]|]; reflexivity.
Qed.

Definition left_of (r : read_result) : option (bytes * list bytes) :=
  match r with
  | DOk _ rb sock => Some (rb, sock)
  | DTooBig rb sock => Some (rb, sock)
  | DLost => None
  end.

Lemma dr_recv_lim_consumption m buf chunks rb rest :
  left_of (dr_recv_lim m buf chunks) = Some (rb, rest) ->
  exists used, chunks = used ++ rest
    /\ rest_of (buf ++ concat used) = Some rb
    /\ (used = [] \/ rest_of (buf ++ concat (removelast used)) = None).
Proof.
  rewrite dr_recv_lim_feed. destruct (feed (read_spec_lim m) buf chunks) as [[d [rb' s]]|] eqn:F; [|discriminate].
  intros H. assert (E : (rb', s) = (rb, rest)) by (destruct d; injection H as <- <-; reflexivity).
  injection E as -> ->. destruct (feed_consumption _ _ _ _ _ _ _ F) as (used & E1 & E2 & E3).
  exists used. rewrite !(rest_of_lim m), E2. split; [exact E1|]. split; [reflexivity|].
  destruct E3 as [->| ->]; auto.
Qed.

Lemma too_big_none a : Data.too_big None a = false.
Proof. reflexivity. Qed.

Lemma recv_loop_lim_none chunks : forall size size' st,
  recv_loop_lim None size st chunks =
  match recv_loop None size' st chunks with
  | ROk d rb sock => DOk d rb sock
  | RLost => DLost
  | RTooBig sock => DLost
  end.
Proof.
  induction chunks as [|c cs IH]; intros size size' st; cbn [recv_loop_lim recv_loop Data.too_big];
    (destruct (eod st) as [e|]; [destruct (return_all st e); reflexivity|]); [reflexivity|].
  destruct c; [reflexivity|]. apply IH.
Qed.

(* the end of a round of the loop: the command `it` is done with state and output r; k is the
   rest of the session *)
Definition emit (it : item) (r : sstate * out) (k : sstate -> list item * list out * sfin)
  : list item * list out * sfin :=
  let '(st', o) := r in
  match o_fin o with
  | Continue => let '(its, os, f) := k st' in (it :: its, o :: os, f)
  | Closed => ([it], [o], SClosed)
  | Crashed => ([it], [o], SCrashed)
  end.

Lemma emit_ext it r k k' : (forall st', k st' = k' st') -> emit it r k = emit it r k'.
Proof. intros H. destruct r as [st' o]. cbn [emit]. rewrite H. reflexivity. Qed.

Lemma emit_lines it r k :
  map it_line (fst (fst (emit it r k))) =
  it_line it :: match o_fin (snd r) with Continue => map it_line (fst (fst (k (fst r)))) | _ => [] end.
Proof.
  destruct r as [st' o]. cbn [emit fst snd]. destruct (o_fin o); try reflexivity.
  destruct (k st') as [[its os] f]. reflexivity.
Qed.

Definition after_item {S : Type} (it : item) (st : sstate)
           (k : sstate -> list item * list out * sfin) : list item * list out * sfin :=
  let '(st', o) := step st it in
  match o_fin o with
  | Continue => let '(its, os, f) := k st' in (it :: its, o :: os, f)
  | Closed => ([it], [o], SClosed)
  | Crashed => ([it], [o], SCrashed)
  end.

Lemma after_item_emit {S} it st k : after_item (S:=S) it st k = emit it (step st it) k.
Proof. reflexivity. Qed.

Section Round.
  Variable S : Type.
  Variable gl : S -> option (bytes * S).
  Variable gd : option N -> S -> option (option bytes * S).

  (* what the command line raw, read in state st with the application's decisions e, makes of
     the stream s1 behind it: the item for C07's `step`, the resulting state and output, the
     stream behind the command.  None: the stream ended inside the message content. *)
  Definition cmd (st : sstate) (e : env) (raw : bytes) (s1 : S) : option (item * (sstate * out) * S) :=
    let it0 := mk_item e (parse_line raw) [] 0 in
    if reads_data st it0 then
      match gd (x_size (ex st)) s1 with
      | None => None
      | Some (Some d, s2) => let it := mk_item e (parse_line raw) d 0 in Some (it, step st it, s2)
      | Some (None, s2) =>
          let it := mk_item e (parse_line raw) [] (over_limit (x_size (ex st))) in Some (it, step st it, s2)
      end
    else if starttls_hook st it0 then
      match hook_out (n_tls e) with
      | Some o => Some (it0, (st, o), s1)
      | None => Some (it0, step st it0, s1)
      end
    else Some (it0, step st it0, s1).

  Lemma loop_S fuel st envs s :
    loop S gl gd (Datatypes.S fuel) st envs s =
    match gl s with
    | None => ([], [], SLost)
    | Some (raw, s1) =>
        let '(e, envs') := pop_env envs in
        match cmd st e raw s1 with
        | None => ([mk_item e (parse_line raw) [] 0], [data_started], SLostInData)
        | Some (it, r, s2) => emit it r (fun st' => loop S gl gd fuel st' envs' s2)
        end
    end.
  Proof.
    cbn [loop]. destruct (gl s) as [[raw s1]|]; [|reflexivity]. destruct (pop_env envs) as [e envs'].
    unfold cmd. destruct (reads_data st _).
    - destruct (gd _ s1) as [[[d|] s2]|]; reflexivity.
    - destruct (starttls_hook st _); [destruct (hook_out (n_tls e))|]; reflexivity.
  Qed.

  Lemma cmd_none {st e raw s1} : cmd st e raw s1 = None -> reads_data st (mk_item e (parse_line raw) [] 0) = true.
  Proof.
    unfold cmd. destruct (reads_data st _); [reflexivity|].
    destruct (starttls_hook st _); [destruct (hook_out (n_tls e))|]; discriminate.
  Qed.

  Lemma cmd_no_hook {st e raw s1 it r s2} : n_tls e = VKeep -> cmd st e raw s1 = Some (it, r, s2) -> r = step st it.
  Proof.
    intros He. unfold cmd. rewrite He. destruct (reads_data st _).
    - destruct (gd _ s1) as [[[d|] s2']|]; intros H; inversion H; reflexivity.
    - destruct (starttls_hook st _); intros H; inversion H; reflexivity.
  Qed.

  Lemma cmd_refused {st e raw} s1 {o} :
    starttls_hook st (mk_item e (parse_line raw) [] 0) = true -> hook_out (n_tls e) = Some o ->
    cmd st e raw s1 = Some (mk_item e (parse_line raw) [] 0, (st, o), s1).
  Proof.
    intros SH HO. unfold cmd. rewrite SH, HO. destruct (reads_data st _) eqn:RD; [|reflexivity].
    unfold reads_data, starttls_hook in RD, SH. destruct (classify _); discriminate.
  Qed.

  (* the fuel: a measure of the unread stream that every line read decreases *)
  Variable size : S -> nat.
  Hypothesis gl_shorter : forall s l s', gl s = Some (l, s') -> (size s' < size s)%nat.
  Hypothesis gd_shorter : forall mx s d s', gd mx s = Some (d, s') -> (size s' < size s)%nat.

  Lemma cmd_shorter {st e raw s1 it r s2} : cmd st e raw s1 = Some (it, r, s2) -> (size s2 <= size s1)%nat.
  Proof.
    unfold cmd. destruct (reads_data st _).
    - destruct (gd _ s1) as [[[d|] s2']|] eqn:D; intros H; inversion H; subst; apply Nat.lt_le_incl, (gd_shorter _ _ _ _ D).
    - destruct (starttls_hook st _); [destruct (hook_out (n_tls e))|]; intros H; inversion H; subst; apply Nat.le_refl.
  Qed.

  Lemma loop_fuel fuel : forall st envs s, (size s < fuel)%nat -> snd (loop S gl gd fuel st envs s) <> SFuel.
  Proof.
    induction fuel as [|fuel IH]; intros st envs s L; [lia|].
    rewrite loop_S. destruct (gl s) as [[raw s1]|] eqn:E; [|cbn; discriminate].
    apply gl_shorter in E. destruct (pop_env envs) as [e envs'].
    destruct (cmd st e raw s1) as [[[it [st' o]] s2]|] eqn:C; [|cbn; discriminate].
    apply cmd_shorter in C. cbn [emit]. destruct (o_fin o); try (cbn; discriminate).
    specialize (IH st' envs' s2). destruct (loop S gl gd fuel st' envs' s2) as [[its os] f]. apply IH. lia.
  Qed.
End Round.

(* two stream representations whose consumers agree drive the command machine identically *)
Section Sim.
  Variables (S1 S2 : Type).
  Variable gl1 : S1 -> option (bytes * S1).
  Variable gl2 : S2 -> option (bytes * S2).
  Variable gd1 : option N -> S1 -> option (option bytes * S1).
  Variable gd2 : option N -> S2 -> option (option bytes * S2).
  Variable R : S1 -> S2 -> Prop.
  (* agree R (gl1 s1) (gl2 s2) and agree R (gd1 mx s1) (gd2 mx s2), unfolded *)
  Hypothesis Hline : forall s1 s2, R s1 s2 ->
    match gl1 s1, gl2 s2 with
    | None, None => True
    | Some (l, s1'), Some (l', s2') => l = l' /\ R s1' s2'
    | _, _ => False
    end.
  Hypothesis Hdata : forall mx s1 s2, R s1 s2 ->
    match gd1 mx s1, gd2 mx s2 with
    | None, None => True
    | Some (d, s1'), Some (d', s2') => d = d' /\ R s1' s2'
    | _, _ => False
    end.

  Lemma cmd_sim st e raw s1 s2 : R s1 s2 -> agree R (cmd S1 gd1 st e raw s1) (cmd S2 gd2 st e raw s2).
  Proof.
    intros HR. unfold cmd. destruct (reads_data st _).
    - pose proof (Hdata (x_size (ex st)) _ _ HR) as HD.
      destruct (gd1 _ s1) as [[d a]|], (gd2 _ s2) as [[d' b]|]; try contradiction; [|exact I].
      destruct HD as [<- Hab]. destruct d; split; auto.
    - destruct (starttls_hook st _); [destruct (hook_out (n_tls e))|]; split; auto.
  Qed.

  Lemma loop_sim : forall fuel st envs s1 s2, R s1 s2 ->
    loop S1 gl1 gd1 fuel st envs s1 = loop S2 gl2 gd2 fuel st envs s2.
  Proof using S1 S2 gl1 gl2 gd1 gd2 R Hline Hdata.
    induction fuel as [|fuel IH]; intros st envs s1 s2 HR; [reflexivity|].
    rewrite !loop_S. pose proof (Hline _ _ HR) as HL.
    destruct (gl1 s1) as [[l a]|], (gl2 s2) as [[l' b]|]; try contradiction; [|reflexivity].
    destruct HL as [<- Hab]. destruct (pop_env envs) as [e envs']. pose proof (cmd_sim st e l _ _ Hab) as HC.
    destruct (cmd S1 gd1 st e l a) as [[[it r] a']|], (cmd S2 gd2 st e l b) as [[[it' r'] b']|]; try contradiction; [|reflexivity].
    destruct HC as [E Hab']. injection E as <- <-. apply emit_ext. intros st'. apply IH, Hab'.
  Qed.
End Sim.

Lemma inc_line_repr s1 s2 : repr s1 s2 -> agree repr (inc_line s1) (line_spec s2).
Proof.
  intros HR. apply (feed_repr _ _ _ line_spec_app_some) in HR. unfold inc_line. rewrite recv_line_feed.
  destruct (feed line_spec (fst s1) (snd s1)) as [[l [rb rest]]|]; exact HR.
Qed.

Lemma inc_data_repr mx s1 s2 : repr s1 s2 -> agree repr (inc_data mx s1) (read_spec_lim mx s2).
Proof.
  intros HR. apply (feed_repr _ _ _ (read_spec_lim_app mx)) in HR. unfold inc_data. rewrite dr_recv_lim_feed.
  destruct (feed (read_spec_lim mx) (fst s1) (snd s1)) as [[[d|] [rb rest]]|]; exact HR.
Qed.

Lemma run_stream_batch {fuel st envs buf chunks} : Forall nonempty chunks ->
  run_stream fuel st envs buf chunks = run_batch fuel st envs (buf ++ concat chunks).
Proof.
  intros NE. unfold run_stream, run_batch.
  apply (loop_sim istream bytes inc_line line_spec inc_data read_spec_lim repr inc_line_repr inc_data_repr).
  split; [exact NE|reflexivity].
Qed.

Lemma run_stream_nil fuel st envs s : run_stream fuel st envs s [] = run_batch fuel st envs s.
Proof. rewrite (run_stream_batch (Forall_nil _)). cbn [concat]. rewrite app_nil_r. reflexivity. Qed.

Lemma run_server_stream_batch {mx ctx vb envs buf chunks} : Forall nonempty chunks ->
  run_server_stream mx ctx vb envs buf chunks = run_server_batch mx ctx vb envs (buf ++ concat chunks).
Proof.
  intros NE. unfold run_server_stream, run_server_batch, session.
  destruct (finish _) as [st1 o]. destruct (o_fin o); try reflexivity.
  cbn [fst snd]. rewrite (run_stream_batch NE). reflexivity.
Qed.

(* every command line read consumes at least its LF: the fuel run_server_stream uses is enough *)
Lemma run_server_batch_fuel mx ctx vb envs s : snd (run_server_batch mx ctx vb envs s) <> SFuel.
Proof.
  unfold run_server_batch, session. destruct (finish _) as [st1 o]. destruct (o_fin o); try (cbn; discriminate).
  pose proof (loop_fuel bytes line_spec read_spec_lim (@length N) line_spec_shorter read_spec_lim_shorter
                        (enough_fuel s) st1 envs s (Nat.lt_succ_diag_r _)) as F.
  fold (run_batch (enough_fuel s) st1 envs s) in F. destruct (run_batch _ st1 envs s) as [[its os] f]. exact F.
Qed.

Definition fin_of (f : sfin) : fin :=
  match f with SClosed => Closed | SCrashed => Crashed | _ => Continue end.

Definition complete (f : sfin) : Prop := f = SClosed \/ f = SCrashed \/ f = SLost.

(* no handlers.STARTTLS hook interferes (the real SmtpSession has none): C07's setting *)
Definition no_hook (envs : list env) : Prop := Forall (fun e => n_tls e = VKeep) envs.

Lemma pop_env_no_hook {envs e envs'} : no_hook envs -> pop_env envs = (e, envs') -> n_tls e = VKeep /\ no_hook envs'.
Proof.
  unfold no_hook. destruct envs as [|e0 envs0]; cbn [pop_env]; intros H E; injection E as <- <-.
  - split; [reflexivity|constructor].
  - inversion H; subst. split; assumption.
Qed.

Section Conn.
  Variable S : Type.
  Variable gl : S -> option (bytes * S).
  Variable gd : option N -> S -> option (option bytes * S).

  (* C07's run_loop, given the items the loop produced, yields its outputs - for a session cut off
     inside a message: given the items before the DATA line, which it then accepts
     (fin_of SLostInData = Continue).  Also when the fuel ran out. *)
  Lemma loop_run_loop : forall fuel st envs s its os f,
    no_hook envs -> loop S gl gd fuel st envs s = (its, os, f) ->
    exists its0 os0 stf, run_loop st its0 = (os0, stf, fin_of f) /\
      match f with
      | SLostInData => exists it, its = its0 ++ [it] /\ os = os0 ++ [data_started] /\ reads_data stf it = true
      | _ => its = its0 /\ os = os0
      end.
  Proof.
    induction fuel as [|fuel IH]; intros st envs s its os f NH;
      [intros H; injection H as <- <- <-; exists [], [], st; auto|].
    rewrite loop_S. destruct (gl s) as [[raw s1]|]; [|intros H; injection H as <- <- <-; exists [], [], st; auto].
    destruct (pop_env envs) as [e envs'] eqn:PE. destruct (pop_env_no_hook NH PE) as [He NH'].
    destruct (cmd S gd st e raw s1) as [[[it r] s2]|] eqn:C.
    2:{ intros H. injection H as <- <- <-. exists [], [], st. split; [reflexivity|].
        eexists. repeat split. exact (cmd_none _ _ C). }
    rewrite (cmd_no_hook _ _ He C). destruct (step st it) as [st' o] eqn:ST.
    cbn [emit]. destruct (o_fin o) eqn:OF.
    1:{ destruct (loop S gl gd fuel st' envs' s2) as [[its' os'] f'] eqn:L. intros H. injection H as <- <- <-.
        destruct (IH _ _ _ _ _ _ NH' L) as (its0 & os0 & stf & RL & T). exists (it :: its0), (o :: os0), stf.
        split; [cbn [run_loop]; rewrite ST, OF, RL; reflexivity|].
        destruct f'; try (destruct T as [-> ->]; auto). destruct T as (it1 & -> & -> & D). exists it1. auto. }
    all: intros H; injection H as <- <- <-; exists [it], [o], st'; cbn [run_loop]; rewrite ST, OF; auto.
  Qed.

  Lemma loop_run_loop_in_data : forall fuel st envs s its os,
    no_hook envs ->
    loop S gl gd fuel st envs s = (its, os, SLostInData) ->
    exists its0 os0 it stf, its = its0 ++ [it] /\ os = os0 ++ [data_started]
      /\ run_loop st its0 = (os0, stf, Continue) /\ reads_data stf it = true.
  Proof using S gl gd.
    intros fuel st envs s its os NH L.
    destruct (loop_run_loop _ _ _ _ _ _ _ NH L) as (its0 & os0 & stf & RL & it & -> & -> & D).
    exists its0, os0, it, stf. auto.
  Qed.
End Conn.

Lemma first_out_stream_cfg mx ctx vb :
  Server_lemmas.first_out (stream_cfg mx ctx) vb = finish (command_BANNER vb (init_state (stream_cfg mx ctx))).
Proof.
  unfold Server_lemmas.first_out. change (cfg_tls_immediately (stream_cfg mx ctx)) with false.
  rewrite andb_false_r. cbn [andb app]. destruct (finish _) as [st2 [rs es f]]. reflexivity.
Qed.

Lemma stream_refines_session {mx ctx vb envs buf chunks its os f} :
  no_hook envs ->
  run_server_stream mx ctx vb envs buf chunks = (its, os, f) -> complete f ->
  exists stf, run_session (stream_cfg mx ctx) vb its = (os, stf, fin_of f).
Proof.
  intros NH. rewrite Server_lemmas.run_session_eq, first_out_stream_cfg.
  unfold Server_lemmas.after, run_server_stream, session, run_stream.
  destruct (finish (command_BANNER vb (init_state (stream_cfg mx ctx)))) as [st1 o].
  destruct (o_fin o) eqn:OF; [|intros H _; injection H as <- <- <-; exists st1; reflexivity ..].
  cbn [fst snd]. destruct (loop istream inc_line inc_data _ st1 envs (buf, chunks)) as [[its' os'] f'] eqn:L.
  intros H C. injection H as <- <- <-.
  destruct (loop_run_loop _ _ _ _ _ _ _ _ _ _ NH L) as (its0 & os0 & stf & RL & T).
  exists stf. destruct C as [->|[->| ->]]; destruct T as [-> ->]; rewrite RL; reflexivity.
Qed.

Lemma stream_events {mx ctx vb envs buf chunks} :
  no_hook envs ->
  complete (snd (run_server_stream mx ctx vb envs buf chunks)) ->
  events_of (snd (fst (run_server_stream mx ctx vb envs buf chunks))) =
  Server_lemmas.all_events (stream_cfg mx ctx) vb (fst (fst (run_server_stream mx ctx vb envs buf chunks))).
Proof.
  intros NH. destruct (run_server_stream mx ctx vb envs buf chunks) as [[its os] f] eqn:E. cbn [fst snd]. intros C.
  destruct (stream_refines_session NH E C) as [stf R].
  unfold Server_lemmas.all_events. rewrite R. reflexivity.
Qed.

(* the front end's DATA decision is C07's: the command machine reads the message exactly when the front end called the reader, and
   looks at the message fields of the item nowhere else *)
Lemma handle_command_data st e l d w :
  handle_command st (mk_item e l d w) =
  if reads_data st (mk_item e l [] 0)
  then get_message_data st (mk_item e l d w) [354] [EvCall KData [] [] (Some 354)]
  else handle_command st (mk_item e l [] 0).
Proof.
  unfold reads_data, handle_command. cbn [mk_item it_line it_v1 it_tls_ok it_au_resps it_au].
  destruct (classify l); try reflexivity.
  unfold command_DATA. cbn [mk_item it_v1].
  destruct (Server.nonempty (l_arg l)); [reflexivity|].
  destruct (s_mail (sv st)); [|reflexivity]. destruct (s_rcpt (sv st)); [|reflexivity]. cbn [negb orb andb].
  destruct (apply_verdict (n_v1 e) 354) as [c|]; [|reflexivity].
  destruct (c =? 354) eqn:E; [apply N.eqb_eq in E; subst c; reflexivity|]. reflexivity.
Qed.

(* it answers 354 and calls the DATA handler first *)
Lemma get_message_data_starts st it rs es :
  exists rs' es', o_replies (snd (finish (get_message_data st it rs es))) = rs ++ rs'
               /\ o_events (snd (finish (get_message_data st it rs es))) = es ++ es'.
Proof.
  unfold get_message_data. destruct (session_HAVE_DATA st it) as [[e2 evs] [c|]].
  - unfold finish, mk. cbn [r_exc r_fam r_replies r_events r_st].
    destruct (close_exc c); cbn [snd o_replies o_events]; rewrite <- ?app_assoc; eauto.
  - unfold finish, mkx. cbn [r_exc r_fam r_replies r_events r_st].
    destruct (have_data_fam st it); cbn [snd o_replies o_events]; eauto. exists []. rewrite app_nil_r. eauto.
Qed.

Lemma over_limit_too_big x sz : Data.too_big (x_size x) sz = true -> Server.too_big x (over_limit (x_size x)) = true.
Proof.
  unfold Data.too_big, Server.too_big, over_limit. destruct (x_size x) as [m|]; [|discriminate]. intros H.
  apply andb_true_iff in H. destruct H as [-> _]. apply N.ltb_lt. lia.
Qed.
Lemma zero_not_too_big x : Server.too_big x 0 = false.
Proof. unfold Server.too_big. destruct (x_size x) as [[|m]|]; reflexivity. Qed.

Lemma run_stream_step {fuel st en envs l rest buf chunks} :
  Forall nonempty chunks -> buf ++ concat chunks = l ++ 10 :: rest -> nolf l = true ->
  run_stream (S fuel) st (en :: envs) buf chunks =
  match cmd bytes read_spec_lim st en (strip_cr l) rest with
  | None => ([mk_item en (parse_line (strip_cr l)) [] 0], [data_started], SLostInData)
  | Some (it, r, s2) => emit it r (fun st' => run_batch fuel st' envs s2)
  end.
Proof.
  intros NE E Hl. rewrite (run_stream_batch NE), E. unfold run_batch.
  rewrite loop_S, (line_spec_line _ _ Hl). reflexivity.
Qed.

Definition wf_body (ls : list bytes) (e : bytes) : Prop :=
  forallb nolf ls = true /\ nolf e = true /\ no_eod ls = true /\ is_eod (e ++ [10]) = true.

(* the item the command machine is given for the DATA line dl followed by the body ls, e *)
Definition data_item (st : sstate) (en : env) (dl : bytes) (ls : list bytes) (e : bytes) : item :=
  if Data.too_big (x_size (ex st)) (N.of_nat (length (unraw ls ++ e ++ [10])))
  then mk_item en (parse_line (strip_cr dl)) [] (over_limit (x_size (ex st)))
  else mk_item en (parse_line (strip_cr dl)) (content ls) 0.

Lemma data_item_line st en dl ls e : it_line (data_item st en dl ls e) = parse_line (strip_cr dl).
Proof. unfold data_item. destruct (Data.too_big _ _); reflexivity. Qed.

(* an accepted DATA line: the reader takes the body up to and including the end-of-data line,
   whatever the lines of the body look like, and the next round starts with every byte behind it *)
Lemma data_transaction {fuel st en envs dl ls e rest buf chunks} :
  Forall nonempty chunks ->
  buf ++ concat chunks = dl ++ 10 :: unraw ls ++ (e ++ [10]) ++ rest ->
  nolf dl = true -> wf_body ls e ->
  reads_data st (mk_item en (parse_line (strip_cr dl)) [] 0) = true ->
  run_stream (S fuel) st (en :: envs) buf chunks =
  after_item (S:=bytes) (data_item st en dl ls e) st (fun st' => run_batch fuel st' envs rest).
Proof.
  intros NE E Hdl (Hl & He & Hn & Hd) RD. rewrite (run_stream_step NE E Hdl).
  unfold cmd, data_item. rewrite RD, (read_spec_lim_complete _ ls e rest Hl He Hn Hd).
  destruct (Data.too_big (x_size (ex st)) _); reflexivity.
Qed.

(* the hypotheses of the theorems are satisfiable by non-trivial values *)

(* "EHLO a" "MAIL FROM:<s>" "RCPT TO:<r>" "DATA" / body: "MAIL FROM:<x>" "..", "QUIT" / "." / "NOOP" "QUIT" *)
Definition ex_stream : bytes := [69; 72; 76; 79; 32; 97; 13; 10; 77; 65; 73; 76; 32; 70; 82; 79; 77; 58; 60; 115; 62; 13; 10; 82; 67; 80; 84; 32; 84; 79; 58; 60; 114; 62; 13; 10; 68; 65; 84; 65; 13; 10; 77; 65; 73; 76; 32; 70; 82; 79; 77; 58; 60; 120; 62; 13; 10; 46; 46; 13; 10; 81; 85; 73; 84; 13; 10; 46; 13; 10; 78; 79; 79; 80; 13; 10; 81; 85; 73; 84; 13; 10].
Definition bytewise (s : bytes) : list bytes := map (fun b => [b]) s.

Lemma bytewise_nonempty s : Forall nonempty (bytewise s).
Proof. induction s; constructor; [discriminate|assumption]. Qed.

(* one burst and byte by byte; limit 100: the message is accepted; its content holds the
   command-looking lines; the NOOP and QUIT behind the end-of-data line are executed *)
Example ex_segmentation_hyps :
  Forall nonempty [ex_stream] /\ Forall nonempty (bytewise (skipn 3 ex_stream))
  /\ [] ++ concat [ex_stream] = firstn 3 ex_stream ++ concat (bytewise (skipn 3 ex_stream))
  /\ observable (run_server_stream (Some 100) false VKeep [] [] [ex_stream]) =
     ([220; 250; 250; 250; 354; 250; 250; 221],
      [EvCall KBanner [] [] (Some 220); EvCall KEhlo [97] [] (Some 250);
       EvCall KMail [115] [] (Some 250); EvCall KRcpt [114] [] (Some 250);
       EvCall KData [] [] (Some 354); EvQueue [115] [[114]];
       EvCall KHaveData [77; 65; 73; 76; 32; 70; 82; 79; 77; 58; 60; 120; 62; 13; 10; 46; 13; 10; 81; 85; 73; 84; 13; 10] [] (Some 250)], SClosed).
Proof.
  split; [repeat constructor; discriminate|]. split; [apply bytewise_nonempty|].
  split; [unfold bytewise; rewrite concat_singletons; vm_compute; reflexivity|]. vm_compute. reflexivity.
Qed.

(* limit 20 (the message has 27 bytes up to and including its end-of-data line): 552, no
   content, and still exactly NOOP and QUIT are executed next - for every segmentation *)
Example ex_over_size :
  observable (run_server_stream (Some 20) false VKeep [] [] [ex_stream]) =
    ([220; 250; 250; 250; 354; 552; 250; 221],
     [EvCall KBanner [] [] (Some 220); EvCall KEhlo [97] [] (Some 250);
      EvCall KMail [115] [] (Some 250); EvCall KRcpt [114] [] (Some 250);
      EvCall KData [] [] (Some 354); EvCall KHaveData [] [] (Some 552)], SClosed)
  /\ run_server_stream (Some 20) false VKeep [] (firstn 40 ex_stream) (bytewise (skipn 40 ex_stream))
     = run_server_stream (Some 20) false VKeep [] [] [ex_stream].
Proof. split; vm_compute; reflexivity. Qed.

(* empty message, pipelined *)
Example ex_empty_message :
  let s := firstn 42 ex_stream ++ [46; 13; 10] ++ skipn 70 ex_stream in   (* ... DATA . NOOP QUIT *)
  replies_of (snd (fst (run_server_stream (Some 20) false VKeep [] [] [s]))) = [220; 250; 250; 250; 354; 250; 250; 221]
  /\ map it_data (fst (fst (run_server_stream (Some 20) false VKeep [] [] (bytewise s)))) = [[]; []; []; []; []; []].
Proof. cbv zeta. split; vm_compute; reflexivity. Qed.

(* the state after "EHLO a", "MAIL FROM:<s>", "RCPT TO:<r>" *)
Definition ex_line_item (raw : bytes) : item := mk_item env_default (parse_line raw) [] 0.
Definition ex_st_tx : sstate :=
  let st0 := fst (finish (command_BANNER VKeep (init_state (stream_cfg (Some 20) false)))) in
  let st1 := fst (step st0 (ex_line_item [69; 72; 76; 79; 32; 97])) in
  let st2 := fst (step st1 (ex_line_item [77; 65; 73; 76; 32; 70; 82; 79; 77; 58; 60; 115; 62])) in
  fst (step st2 (ex_line_item [82; 67; 80; 84; 32; 84; 79; 58; 60; 114; 62])).

Example ex_transaction_hyps :
  let dl := [68; 65; 84; 65; 13] in                                       (* "DATA\r" *)
  let ls := [[77; 65; 73; 76; 32; 70; 82; 79; 77; 58; 60; 120; 62; 13]; [46; 46; 13]; [81; 85; 73; 84; 13]] in                    (* "MAIL FROM:<x>\r" "..\r" "QUIT\r" *)
  let e := [46; 13] in
  let rest := skipn 70 ex_stream in                                       (* NOOP QUIT *)
  skipn 36 ex_stream = dl ++ 10 :: unraw ls ++ (e ++ [10]) ++ rest
  /\ nolf dl = true /\ wf_body ls e
  /\ reads_data ex_st_tx (mk_item env_default (parse_line (strip_cr dl)) [] 0) = true
  /\ Data.too_big (x_size (ex ex_st_tx)) (N.of_nat (length (unraw ls ++ e ++ [10]))) = true
  /\ content ls = [77; 65; 73; 76; 32; 70; 82; 79; 77; 58; 60; 120; 62; 13; 10; 46; 13; 10; 81; 85; 73; 84; 13; 10].
Proof. cbv zeta. unfold wf_body. repeat split; vm_compute; reflexivity. Qed.

Example ex_recv_line : recv_line [78; 79] [[79; 80; 13]; [10; 81]; [85]] = LLine [78; 79; 79; 80] [81] [[85]].
Proof. reflexivity. Qed.

Example ex_reader_too_big :
  dr_recv_lim (Some 5) [97; 97] [[97; 97; 13; 10; 98]; [98; 98; 10; 46]; [13; 10; 81; 10]; [82]] = DTooBig [81; 10] [[82]]
  /\ dr_recv_lim (Some 50) [97; 97] [[97; 97; 13; 10; 98]; [98; 98; 10; 46]; [13; 10; 81; 10]; [82]]
     = DOk [97; 97; 97; 97; 13; 10; 98; 98; 98; 10] [81; 10] [[82]].
Proof. split; reflexivity. Qed.

(* D13 as it was: model/Data.v's dr_recv with a limit is the reader BEFORE the repair
   (size counts socket pieces, stops at the first oversize piece).  The same byte stream
   "aaaa\r\n.\r\nQUIT\r\n" with limit 9: read in one piece it is too big and the QUIT is lost
   with it; with the 9 message bytes already buffered it is accepted. *)
Lemma old_reader_segmentation_dependent :
  let s := [97; 97; 97; 97; 13; 10; 46; 13; 10; 81; 85; 73; 84; 13; 10] in
  dr_recv (Some 9) [] [s] = RTooBig []
  /\ dr_recv (Some 9) (firstn 9 s) [skipn 9 s] = ROk [97; 97; 97; 97; 13; 10] [] [[81; 85; 73; 84; 13; 10]]
  /\ dr_recv_lim (Some 9) [] [s] = DOk [97; 97; 97; 97; 13; 10] [81; 85; 73; 84; 13; 10] []
  /\ dr_recv_lim (Some 8) (firstn 3 s) [skipn 3 s] = DTooBig [81; 85; 73; 84; 13; 10] [].
Proof. cbv zeta. repeat split; vm_compute; reflexivity. Qed.

(* "EHLO a" "STARTTLS" refused with 454 by the hook, "NOOP" "QUIT" glued behind it *)
Definition ex_tls_stream : bytes :=
  [69; 72; 76; 79; 32; 97; 13; 10; 83; 84; 65; 82; 84; 84; 76; 83; 13; 10; 78; 79; 79; 80; 13; 10; 81; 85; 73; 84; 13; 10].
Definition ex_hook_env : env := {| n_v1 := VKeep; n_v2 := VKeep; n_v3 := VKeep; n_q := QOk; n_tls := VCode 454 |}.
Example ex_starttls_refused :
  replies_of (snd (fst (run_server_stream None true VKeep [ex_hook_env; ex_hook_env] [] [ex_tls_stream]))) = [220; 250; 454; 250; 221]
  /\ run_server_stream None true VKeep [ex_hook_env; ex_hook_env] [] (bytewise ex_tls_stream)
     = run_server_stream None true VKeep [ex_hook_env; ex_hook_env] [] [ex_tls_stream]
  /\ replies_of (snd (fst (run_server_stream None true VKeep [] [] [ex_tls_stream]))) = [220; 250; 220; 421]
  /\ replies_of (snd (fst (run_server_stream None false VKeep [ex_hook_env; ex_hook_env] [] [ex_tls_stream]))) = [220; 250; 500; 250; 221].
Proof. repeat split; vm_compute; reflexivity. Qed.

Example ex_starttls_refused_hyps :
  let st := fst (step (fst (finish (command_BANNER VKeep (init_state (stream_cfg None true))))) (ex_line_item [69; 72; 76; 79; 32; 97])) in
  starttls_hook st (mk_item ex_hook_env (parse_line (strip_cr [83; 84; 65; 82; 84; 84; 76; 83; 13])) [] 0) = true
  /\ exists o, hook_out (n_tls ex_hook_env) = Some o /\ o_fin o = Continue /\ o_replies o = [454].
Proof. cbv zeta. split; [vm_compute; reflexivity|]. eexists. repeat split. Qed.
