(* C02 - lemmas about model/Edge.v, in the order of the model: the reply chosen for a list
   of results (failure_reply_spec); the writes and the loop of Queue.enqueue (queue_outcome,
   queue_ack, queue_failed); the edges over any enqueue (smtp_2xx, edge_refused); ProxyQueue;
   concurrent hand-offs (project_run, concurrent_answer); the SMTP session (sstep_inv). *)
From Coq Require Import List NArith Bool.
From SV Require Import model.Edge.
Import ListNotations.
Open Scope N_scope.

Lemma first_is_excl : forall d1 d2 c, first_is d1 c = true -> d1 <> d2 -> first_is d2 c = false.
Proof.
  intros d1 d2 [|x c] H Hne; cbn in *; [discriminate|].
  apply N.eqb_eq in H. subst x. apply N.eqb_neq. exact Hne.
Qed.

Lemma is_error_not_class2 : forall c, is_error c = true -> class2 c = false.
Proof.
  intros c H. unfold is_error in H. unfold class2.
  apply orb_true_iff in H. destruct H as [H|H];
    eapply first_is_excl; try exact H; discriminate.
Qed.

Lemma code_451_is_error : is_error code_451 = true.
Proof. reflexivity. Qed.

Lemma usable_is_error : forall r c, usable r = Some c -> is_error c = true.
Proof.
  intros [[[|x c0]|]] c H; try discriminate. unfold usable in H. cbn in H.
  destruct (is_error (x :: c0)) eqn:E; [|discriminate].
  injection H as <-. exact E.
Qed.

Definition smtp_err (c : code) : Prop := is_error c = true.
Definition http_err (s : N) : Prop := s / 100 = 4 \/ s / 100 = 5.

Lemma http_status_2xx : forall c, http_status_of c / 100 = 2 -> class2 c = true.
Proof.
  intros c H. unfold http_status_of in H. unfold class2.
  destruct (first_is 50 c); [reflexivity|].
  destruct (first_is 52 c); [discriminate|].
  destruct (code_eqb c code_535); discriminate.
Qed.

Lemma http_status_of_error : forall c, is_error c = true -> http_err (http_status_of c).
Proof.
  intros c H. apply is_error_not_class2 in H. unfold class2 in H.
  unfold http_status_of. rewrite H.
  destruct (first_is 52 c); [right; reflexivity|].
  destruct (code_eqb c code_535); [left|right]; reflexivity.
Qed.

Definition all_ids (rs : results) : Prop := forall e w, In (e, w) rs -> exists i, w = Id i.
Definition has_failure (rs : results) : Prop :=
  rs = [] \/ exists e w, In (e, w) rs /\ is_failure w = true.

Lemma first_failure_none : forall rs, first_failure rs = None -> all_ids rs.
Proof.
  induction rs as [|[e0 w0] rs IH]; intros H e w Hin; [destruct Hin|].
  cbn in H. destruct (attached w0) eqn:A; [discriminate|].
  destruct Hin as [[= <- <-]|Hin]; [|exact (IH H _ _ Hin)].
  destruct w0; try discriminate. eauto.
Qed.

Lemma failure_reply_spec : forall rs,
  match failure_reply rs with
  | Some c => is_error c = true
  | None => rs <> [] /\ all_ids rs
  end.
Proof.
  intros [|p rs]; [exact code_451_is_error|]. unfold failure_reply.
  destruct (first_failure (p :: rs)) as [[r|]|] eqn:FF; [|reflexivity|].
  - destruct (usable r) eqn:U; [exact (usable_is_error _ _ U)|reflexivity].
  - split; [discriminate|exact (first_failure_none _ FF)].
Qed.

Lemma smtp_2xx_results : forall rs, class2 (smtp_reply_of rs) = true -> rs <> [] /\ all_ids rs.
Proof.
  intros rs H. pose proof (failure_reply_spec rs) as F. unfold smtp_reply_of in H.
  destruct (failure_reply rs); [|exact F].
  apply is_error_not_class2 in F. congruence.
Qed.

Lemma wsgi_2xx_results : forall rs, wsgi_status_of rs / 100 = 2 -> rs <> [] /\ all_ids rs.
Proof. intros rs H. apply smtp_2xx_results, http_status_2xx, H. Qed.

Lemma error_results : forall rs, has_failure rs ->
  smtp_err (smtp_reply_of rs) /\ http_err (wsgi_status_of rs).
Proof.
  intros rs H.
  assert (E : is_error (smtp_reply_of rs) = true).
  { pose proof (failure_reply_spec rs) as F. unfold smtp_reply_of.
    destruct (failure_reply rs); [exact F|]. destruct F as [Hne Hall].
    destruct H as [->|(e & w & Hin & Hf)]; [congruence|].
    destruct (Hall _ _ Hin) as [i ->]. discriminate. }
  split; [exact E|exact (http_status_of_error _ E)].
Qed.

(* the last clause of Edge.all_stored_before, by name *)
Definition reply_free (t : trace) : Prop := forall e, In e t -> is_reply_event e = false.

Lemma reply_free_app : forall a b, reply_free a -> reply_free b -> reply_free (a ++ b).
Proof. intros a b Ha Hb e H. apply in_app_or in H. destruct H; auto. Qed.

Lemma reply_free_ticks : forall n, reply_free (repeat EvTick n).
Proof. intros n e H. apply repeat_spec in H. subst e. reflexivity. Qed.

Lemma add_of_nat_succ : forall k i, k + N.of_nat (S i) = k + 1 + N.of_nat i.
Proof. intros k i. rewrite Nat2N.inj_succ, <- N.add_1_l. apply N.add_assoc. Qed.

Lemma writes_outs : forall bs k tr outs, writes k bs = (tr, Some outs) ->
  forall j o, In (j, o) outs <->
              exists i d, j = k + N.of_nat i /\ nth_error bs i = Some (Done d o).
Proof.
  induction bs as [|b bs IH]; intros k tr outs H j o; cbn in H.
  - injection H as <- <-. split; [intros []|intros ([|i] & d & _ & Hn); discriminate].
  - destruct b as [d0 o0|]; [|discriminate].
    destruct (writes (k + 1) bs) as [tr' [outs'|]] eqn:W; [|discriminate].
    injection H as <- <-. specialize (IH _ _ _ W j o). split.
    + intros [[= <- <-]|Hin]; [exists O, d0; split; [symmetry; apply N.add_0_r|reflexivity]|].
      apply IH in Hin. destruct Hin as (i & d & -> & Hn).
      exists (S i), d. split; [symmetry; apply add_of_nat_succ|exact Hn].
    + intros ([|i] & d & -> & Hn); [injection Hn as <- <-; left; rewrite N.add_0_r; reflexivity|].
      right. apply IH. exists i, d. split; [apply add_of_nat_succ|exact Hn].
Qed.

Lemma writes_nil_outs : forall bs k tr outs, writes k bs = (tr, Some outs) ->
  outs = [] -> bs = [].
Proof.
  intros [|[d o|] bs] k tr outs H ->; [reflexivity| |discriminate].
  cbn in H. destruct (writes (k + 1) bs) as [tr' [outs'|]]; discriminate.
Qed.

Lemma writes_events : forall bs k e, In e (fst (writes k bs)) ->
  e = EvTick \/ (exists j, e = EvWriteStart j) \/
  exists j d o, In (Done d o) bs /\ e = finish_event j o.
Proof.
  induction bs as [|[d o|] bs IH]; intros k e H; cbn in H; [destruct H| |].
  - destruct (writes (k + 1) bs) as [tr' r] eqn:W. cbn in H.
    destruct H as [<-|H]; [eauto|].
    apply in_app_or in H. destruct H as [H|[<-|H]].
    + left. exact (repeat_spec _ _ _ H).
    + right. right. exists k, d, o. split; [left|]; reflexivity.
    + specialize (IH (k + 1) e). rewrite W in IH.
      destruct (IH H) as [->|[E|(j & d' & o' & Hin & ->)]]; auto.
      right. right. exists j, d', o'. split; [right; exact Hin|reflexivity].
  - destruct H as [<-|[<-|[]]]; eauto.
Qed.

Lemma writes_no_reply : forall bs k, reply_free (fst (writes k bs)).
Proof.
  intros bs k e H.
  destruct (writes_events _ _ _ H) as [->|[(j & ->)|(j & d & [] & _ & ->)]]; reflexivity.
Qed.

Lemma writes_fail_event : forall bs k j, In (EvWriteFail j) (fst (writes k bs)) ->
  exists b, In b bs /\ failed_write b = true.
Proof.
  intros bs k j H.
  destruct (writes_events _ _ _ H) as [E|[(j' & E)|(j' & d & o & Hin & E)]]; try discriminate.
  exists (Done d o). split; [exact Hin|]. destruct o; [discriminate|reflexivity..].
Qed.

Lemma writes_done : forall bs k tr outs, writes k bs = (tr, Some outs) ->
  forall j o, In (j, o) outs -> In (finish_event j o) tr.
Proof.
  induction bs as [|[d0 o0|] bs IH]; intros k tr outs H j o Hin; cbn in H; [| |discriminate].
  - injection H as <- <-. destruct Hin.
  - destruct (writes (k + 1) bs) as [tr' [outs'|]] eqn:W; [|discriminate].
    injection H as <- <-. right. apply in_or_app. right.
    destruct Hin as [[= <- <-]|Hin]; [left; reflexivity|right; exact (IH _ _ _ W _ _ Hin)].
Qed.

Lemma writes_blocked : forall bs k, In Hang bs <-> snd (writes k bs) = None.
Proof.
  induction bs as [|[d o|] bs IH]; intros k; cbn.
  - split; [intros []|discriminate].
  - specialize (IH (k + 1)). destruct (writes (k + 1) bs) as [tr' r]. cbn in *. split.
    + intros [H|H]; [discriminate|]. apply IH in H. rewrite H. reflexivity.
    + intros H. right. apply IH. destruct r; [discriminate|reflexivity].
  - split; [reflexivity|left; reflexivity].
Qed.

Lemma spawn_loop_results : forall relay outs att rs,
  spawn_loop relay outs = (att, inl rs) ->
  forall k o, In (k, o) outs ->
    (o = WId /\ In (k, Id k) rs) \/ exists a, o = WQErr a /\ In (k, QErr a) rs.
Proof.
  induction outs as [|[k0 o0] outs IH]; intros att rs H k o Hin; [destruct Hin|].
  cbn in H. destruct o0 as [|a|]; [| |discriminate];
    destruct (spawn_loop relay outs) as [att' [rs'|]]; try discriminate;
    injection H as <- <-;
    (destruct Hin as [[= <- <-]|Hin];
     [|destruct (IH _ _ eq_refl _ _ Hin) as [[-> ?]|(a' & -> & ?)]]); cbn; eauto.
Qed.

Lemma spawn_loop_raises : forall relay outs att x, spawn_loop relay outs = (att, inr x) ->
  exists k, In (k, WExc x) outs.
Proof.
  induction outs as [|[k o] outs IH]; intros att x H; cbn in H; [discriminate|].
  destruct o as [|a|y]; [| |injection H as _ <-; exists k; left; reflexivity];
    destruct (spawn_loop relay outs) as [att' [rs'|x']]; try discriminate;
    injection H as _ <-; destruct (IH _ _ eq_refl) as (k' & Hk); exists k'; right; exact Hk.
Qed.

Lemma spawn_loop_attempts : forall relay outs k,
  In k (fst (spawn_loop relay outs)) -> In (k, WId) outs.
Proof.
  induction outs as [|[k0 o] outs IH]; intros k H; cbn in H; [destruct H|].
  destruct o as [|a|]; [| |destruct H];
    destruct (spawn_loop relay outs) as [att' r]; cbn in *.
  - destruct relay; [destruct H as [<-|H]; [left; reflexivity|]|]; right; apply IH, H.
  - right. apply IH, H.
Qed.

Lemma queue_trace_reply_free : forall relay bs, reply_free (q_trace (queue_enqueue relay bs)).
Proof.
  intros relay bs. unfold queue_enqueue.
  pose proof (writes_no_reply bs 0) as NR.
  destruct (writes 0 bs) as [tr0 [outs|]]; [|exact NR].
  destruct (spawn_loop relay outs) as [att [rs|x]]; cbn; [exact NR|].
  apply reply_free_app; [exact NR|]. intros e0 [<-|[]]. reflexivity.
Qed.

Lemma queue_blocked : forall relay bs, In Hang bs -> q_res (queue_enqueue relay bs) = Blocked.
Proof.
  intros relay bs H. apply (writes_blocked bs 0) in H. unfold queue_enqueue.
  destruct (writes 0 bs) as [tr0 r]. cbn in H. subst r. reflexivity.
Qed.

Lemma queue_outcome : forall relay bs,
  match q_res (queue_enqueue relay bs) with
  | Returned rs =>
      (bs = [] -> rs = []) /\
      forall i d o, nth_error bs i = Some (Done d o) ->
        (o = WId /\ In (N.of_nat i, Id (N.of_nat i)) rs) \/
        exists a, o = WQErr a /\ In (N.of_nat i, QErr a) rs
  | Raised x => exists d, In (Done d (WExc x)) bs
  | Blocked => In Hang bs
  end.
Proof.
  intros relay bs. unfold queue_enqueue.
  destruct (writes 0 bs) as [tr0 [outs|]] eqn:W;
    [|apply (writes_blocked bs 0); rewrite W; reflexivity].
  pose proof (writes_outs _ _ _ _ W) as O.
  destruct (spawn_loop relay outs) as [att [rs|x]] eqn:S; cbn.
  - split.
    + intros ->. cbn in W. injection W as <- <-. cbn in S. injection S as <- <-. reflexivity.
    + intros i d o Hn. apply (spawn_loop_results _ _ _ _ S). apply O. exists i, d. split; [reflexivity|exact Hn].
  - destruct (spawn_loop_raises _ _ _ _ S) as (k & Hk). apply O in Hk.
    destruct Hk as (i & d & _ & Hn). exists d. exact (nth_error_In _ _ Hn).
Qed.

Lemma queue_ack : forall relay bs rs,
  q_res (queue_enqueue relay bs) = Returned rs -> rs <> [] -> all_ids rs ->
  all_stored_before bs (q_trace (queue_enqueue relay bs)).
Proof.
  intros relay bs rs Q Hne Hall.
  pose proof (queue_outcome relay bs) as O. rewrite Q in O. destruct O as [Onil O].
  pose proof (queue_trace_reply_free relay bs) as RF.
  assert (NH : ~ In Hang bs) by (intros X; rewrite (queue_blocked _ _ X) in Q; discriminate).
  unfold queue_enqueue in *.
  destruct (writes 0 bs) as [tr0 [outs|]] eqn:W; [|discriminate].
  destruct (spawn_loop relay outs) as [att [rs'|x]]; [|discriminate]. cbn in *.
  assert (Hb : forall i b, nth_error bs i = Some b ->
               exists d, b = Done d WId /\ In (EvWriteDone (N.of_nat i)) tr0).
  { intros i [d o|] Hn; [|destruct NH; exact (nth_error_In _ _ Hn)]. exists d.
    destruct (O _ _ _ Hn) as [[-> _]|(a & -> & Hr)]; [|destruct (Hall _ _ Hr) as [j [=]]].
    split; [reflexivity|]. apply (writes_done _ _ _ _ W (N.of_nat i) WId), (writes_outs _ _ _ _ W).
    exists i, d. split; [reflexivity|exact Hn]. }
  split; [exact (fun E => Hne (Onil E))|]. split; [exact Hb|]. split; [|exact RF].
  intros k Hin. destruct (writes_fail_event bs 0 k) as (b & Hbin & Hf); [rewrite W; exact Hin|].
  apply In_nth_error in Hbin. destruct Hbin as [i Hn].
  destruct (Hb _ _ Hn) as (d & -> & _). discriminate.
Qed.

Lemma queue_failed : forall relay bs,
  ~ In Hang bs -> (exists b, In b bs /\ failed_write b = true) ->
  match q_res (queue_enqueue relay bs) with
  | Returned rs => has_failure rs
  | Raised x => exists d, In (Done d (WExc x)) bs
  | Blocked => False
  end.
Proof.
  intros relay bs NH (b & Hb & Hf). pose proof (queue_outcome relay bs) as O.
  destruct (q_res (queue_enqueue relay bs)) as [rs|x|]; [|exact O|exact (NH O)].
  destruct O as [_ O]. apply In_nth_error in Hb. destruct Hb as [i Hn].
  destruct b as [d o|]; [|discriminate]. right.
  destruct (O _ _ _ Hn) as [[-> _]|(a & -> & Hr)]; [discriminate|]. eauto.
Qed.

Lemma attempts_only_for_stored : forall relay bs k,
  In k (q_attempts (queue_enqueue relay bs)) ->
  exists d, nth_error bs (N.to_nat k) = Some (Done d WId).
Proof.
  intros relay bs k H. unfold queue_enqueue in H.
  destruct (writes 0 bs) as [tr0 [outs|]] eqn:W; [|destruct H].
  assert (Hin : In (k, WId) outs).
  { apply (spawn_loop_attempts relay). destruct (spawn_loop relay outs) as [att [rs|]]; exact H. }
  apply (writes_outs _ _ _ _ W) in Hin. destruct Hin as (i & d & -> & Hn).
  exists d. rewrite N.add_0_l, Nat2N.id. exact Hn.
Qed.

Definition answer_events {A : Type} (ev : A -> event) (a : answer A) : list event :=
  match a with Replied x => [ev x] | _ => [] end.

Lemma smtp_edge_trace : forall r,
  fst (smtp_edge r) = q_trace r ++ answer_events EvSmtpReply (snd (smtp_edge r)).
Proof.
  intros r. unfold smtp_edge.
  destruct (q_res r) as [rs|[]|]; cbn; rewrite ?app_nil_r; reflexivity.
Qed.

Lemma wsgi_edge_trace : forall r,
  fst (wsgi_edge r) = q_trace r ++ answer_events EvHttpStatus (snd (wsgi_edge r)).
Proof.
  intros r. unfold wsgi_edge.
  destruct (q_res r) as [rs|[]|]; cbn; rewrite ?app_nil_r; reflexivity.
Qed.

Lemma smtp_2xx : forall r tr c, smtp_edge r = (tr, Replied c) -> class2 c = true ->
  exists rs, q_res r = Returned rs /\ tr = q_trace r ++ [EvSmtpReply c] /\ rs <> [] /\ all_ids rs.
Proof.
  intros r tr c H C2. unfold smtp_edge in H.
  destruct (q_res r) as [rs|[]|]; try discriminate; injection H as <- <-; try discriminate.
  exists rs. split; [reflexivity|]. split; [reflexivity|exact (smtp_2xx_results _ C2)].
Qed.

Lemma wsgi_2xx : forall r tr s, wsgi_edge r = (tr, Replied s) -> s / 100 = 2 ->
  exists rs, q_res r = Returned rs /\ tr = q_trace r ++ [EvHttpStatus s] /\ rs <> [] /\ all_ids rs.
Proof.
  intros r tr s H C2. unfold wsgi_edge in H.
  destruct (q_res r) as [rs|[]|]; try discriminate; injection H as <- <-; try discriminate.
  exists rs. split; [reflexivity|]. split; [reflexivity|exact (wsgi_2xx_results _ C2)].
Qed.

Lemma edge_blocked : forall r, q_res r = Blocked ->
  smtp_edge r = (q_trace r, NoReply) /\ wsgi_edge r = (q_trace r, NoReply).
Proof. intros r H. unfold smtp_edge, wsgi_edge. rewrite H. split; reflexivity. Qed.

Lemma edge_refused : forall r,
  match q_res r with Returned rs => has_failure rs | Raised _ => True | Blocked => False end ->
  refused smtp_err (snd (smtp_edge r)) /\ refused http_err (snd (wsgi_edge r)) /\
  (snd (smtp_edge r) = Dropped \/ snd (wsgi_edge r) = Dropped ->
   q_res r = Raised ExTimeout \/ q_res r = Raised ExBase).
Proof.
  intros r H. unfold smtp_edge, wsgi_edge.
  destruct (q_res r) as [rs|[]|]; cbn; [| | | |destruct H].
  - destruct (error_results rs H) as [E1 E2]. repeat split; auto. intros [X|X]; discriminate.
  - repeat split; [right; reflexivity|]. intros [X|X]; discriminate.
  - repeat split. auto.
  - repeat split. auto.
Qed.

Lemma edge_error_replied : forall r,
  q_res r = Raised ExException \/ (exists rs, q_res r = Returned rs /\ has_failure rs) ->
  (exists tr c, smtp_edge r = (tr, Replied c) /\ smtp_err c) /\
  (exists tr s, wsgi_edge r = (tr, Replied s) /\ http_err s).
Proof.
  intros r H. unfold smtp_edge, wsgi_edge. destruct H as [->|(rs & -> & F)]; cbn.
  - split; eexists _, _; split; try reflexivity. right. reflexivity.
  - destruct (error_results rs F). split; eexists _, _; split; try reflexivity; assumption.
Qed.

Lemma first_relay_err_none : forall l, first_relay_err l = None ->
  forall x, In x l -> is_rerr x = false.
Proof.
  induction l as [|y l IH]; intros H x Hin; [destruct Hin|].
  destruct y; cbn in H; try discriminate;
    (destruct Hin as [<-|Hin]; [reflexivity|apply IH; assumption]).
Qed.

Lemma proxy_results_spec : forall l,
  (proxy_results_of l = [(0, Id 0)] /\ forall x, In x l -> is_rerr x = false) \/
  exists r, proxy_results_of l = [(0, RelayErr r)].
Proof.
  intros l. unfold proxy_results_of.
  destruct (first_relay_err l) eqn:F; [right; eauto|left].
  split; [reflexivity|exact (first_relay_err_none _ F)].
Qed.

Lemma relay_err_not_ids : forall r, ~ all_ids [(0, RelayErr r)].
Proof. intros r H. destruct (H 0 (RelayErr r)) as [i [=]]. left. reflexivity. Qed.

Lemma relay_err_failure : forall r, has_failure [(0, RelayErr r)].
Proof. intros r. right. exists 0, (RelayErr r). split; [left|]; reflexivity. Qed.

Lemma proxy_ok_core : forall rr rs,
  q_res (proxy_enqueue rr) = Returned rs -> all_ids rs ->
  relayed_ok rr /\ q_trace (proxy_enqueue rr) = [EvRelayStart; EvRelayDone].
Proof.
  intros rr rs H Hall. destruct rr as [|l|l|r| |]; try discriminate;
    cbn in H; injection H as <-; cbn.
  - split; [exact I|reflexivity].
  - destruct (proxy_results_spec (map snd l)) as [[_ N]|[r E]];
      [|rewrite E in Hall; destruct (relay_err_not_ids _ Hall)].
    split; [|reflexivity]. intros p Hp. apply N, in_map, Hp.
  - destruct (proxy_results_spec l) as [[_ N]|[r E]];
      [|rewrite E in Hall; destruct (relay_err_not_ids _ Hall)].
    split; [exact N|reflexivity].
  - destruct (relay_err_not_ids _ Hall).
Qed.

Lemma proxy_failed : forall rr, relay_failed rr ->
  q_res (proxy_enqueue rr) = Raised ExException \/
  exists rs, q_res (proxy_enqueue rr) = Returned rs /\ has_failure rs.
Proof.
  assert (P : forall l x, In x l -> is_rerr x = true -> has_failure (proxy_results_of l)).
  { intros l x Hin Hx. destruct (proxy_results_spec l) as [[_ N]|[r ->]];
      [rewrite (N _ Hin) in Hx; discriminate|apply relay_err_failure]. }
  intros [|l|l|r| |] H; cbn in H; try contradiction; cbn; [right..|left; reflexivity].
  - destruct H as (p & Hp & Hx). eexists. split; [reflexivity|].
    exact (P _ _ (in_map snd _ _ Hp) Hx).
  - destruct H as (x & Hp & Hx). eexists. split; [reflexivity|exact (P _ _ Hp Hx)].
  - eexists. split; [reflexivity|apply relay_err_failure].
Qed.

Definition r550 : reply := mkReply (Some [53; 53; 48]).
Definition r250 : reply := mkReply (Some code_250).

Example ex_all_stored :
  smtp_run true [Done 0 WId; Done 1 WId; Done 0 WId] =
  ([EvWriteStart 0; EvWriteDone 0; EvWriteStart 1; EvTick; EvWriteDone 1;
    EvWriteStart 2; EvWriteDone 2; EvSmtpReply code_250], Replied code_250)
  /\ q_attempts (queue_enqueue true [Done 0 WId; Done 1 WId; Done 0 WId]) = [0; 1; 2]
  /\ snd (wsgi_run true [Done 0 WId; Done 1 WId; Done 0 WId]) = Replied 204.
Proof. repeat split. Qed.

(* the D3 witness [Id; QErr]: acknowledged with 250/204 before the fix, 451/503 now *)
Example ex_d3_witness :
  snd (smtp_run true [Done 0 WId; Done 0 (WQErr None)]) = Replied code_451 /\
  snd (wsgi_run true [Done 0 WId; Done 0 (WQErr None)]) = Replied 503 /\
  q_attempts (queue_enqueue true [Done 0 WId; Done 0 (WQErr None)]) = [0].
Proof. repeat split. Qed.

(* a QueueError carrying a 2xx reply cannot turn into an acknowledgement;
   a usable attached reply is passed on; another exception gives 421 / 500 *)
Example ex_failures :
  snd (smtp_run false [Done 0 WId; Done 2 (WQErr (Some r250))]) = Replied code_451 /\
  snd (smtp_run false [Done 0 (WQErr (Some r550)); Done 0 WId]) = Replied [53; 53; 48] /\
  snd (wsgi_run false [Done 0 (WQErr (Some r550)); Done 0 WId]) = Replied 500 /\
  snd (smtp_run true [Done 0 WId; Done 0 (WExc ExException); Done 0 WId]) = Replied code_421 /\
  snd (wsgi_run true [Done 0 WId; Done 0 (WExc ExException); Done 0 WId]) = Replied 500 /\
  q_attempts (queue_enqueue true [Done 0 WId; Done 0 (WExc ExException); Done 0 WId]) = [0].
Proof. repeat split. Qed.

Example ex_blocked :
  smtp_run true [Done 0 WId; Hang; Done 0 WId] =
  ([EvWriteStart 0; EvWriteDone 0; EvWriteStart 1; EvTick], NoReply).
Proof. reflexivity. Qed.

(* the D4 witness: a mapping result with one rejected recipient *)
Example ex_d4_witness :
  smtp_proxy_run (RelMap [(0, ROk); (1, RErr r550); (2, ROk)]) =
    ([EvRelayStart; EvRelayDone; EvSmtpReply [53; 53; 48]], Replied [53; 53; 48]) /\
  snd (wsgi_proxy_run (RelMap [(0, ROk); (1, RErr r550); (2, ROk)])) = Replied 500 /\
  relay_failed (RelMap [(0, ROk); (1, RErr r550); (2, ROk)]).
Proof.
  repeat split. exists (1, RErr r550). split; [right; left; reflexivity|reflexivity].
Qed.

Example ex_proxy_ok :
  smtp_proxy_run (RelSeq [ROk; ROther; ROk]) =
    ([EvRelayStart; EvRelayDone; EvSmtpReply code_250], Replied code_250) /\
  relayed_ok (RelSeq [ROk; ROther; ROk]).
Proof.
  split; [reflexivity|]. intros x [<-|[<-|[<-|[]]]]; reflexivity.
Qed.

(* one message's run: a part without answers, then at most the answer *)
Definition msg_pre (relay : bool) (m : msg) : trace :=
  repeat EvTick (N.to_nat (m_pyields m)) ++ q_trace (queue_enqueue relay (m_bs m)).

Definition msg_answer (relay : bool) (m : msg) : list event :=
  match m_edge m with
  | ESmtp => answer_events EvSmtpReply (snd (smtp_run relay (m_bs m)))
  | EWsgi => answer_events EvHttpStatus (snd (wsgi_run relay (m_bs m)))
  end.

Lemma msg_trace_split : forall relay m, msg_trace relay m = msg_pre relay m ++ msg_answer relay m.
Proof.
  intros relay m. unfold msg_trace, msg_pre, msg_answer, smtp_run, wsgi_run, handoff.
  rewrite <- app_assoc. destruct (m_edge m); [rewrite smtp_edge_trace|rewrite wsgi_edge_trace];
    reflexivity.
Qed.

Lemma msg_pre_reply_free : forall relay m, reply_free (msg_pre relay m).
Proof.
  intros relay m. apply reply_free_app; [apply reply_free_ticks|apply queue_trace_reply_free].
Qed.

Lemma msg_answer_short : forall relay m,
  msg_answer relay m = [] \/ exists e, msg_answer relay m = [e].
Proof.
  intros relay m. unfold msg_answer.
  destruct (m_edge m); [destruct (snd (smtp_run _ _))|destruct (snd (wsgi_run _ _))]; cbn; eauto.
Qed.

Lemma msg_answer_inv : forall relay m e, msg_answer relay m = [e] ->
  match e with
  | EvSmtpReply c => m_edge m = ESmtp /\ snd (smtp_run relay (m_bs m)) = Replied c
  | EvHttpStatus s => m_edge m = EWsgi /\ snd (wsgi_run relay (m_bs m)) = Replied s
  | _ => False
  end.
Proof.
  intros relay m e H. unfold msg_answer in H.
  destruct (m_edge m); [destruct (snd (smtp_run _ _))|destruct (snd (wsgi_run _ _))];
    try discriminate; injection H as <-; auto.
Qed.

Lemma answer_position : forall pre tl l1 e l2,
  reply_free pre -> is_reply_event e = true -> (tl = [] \/ exists a, tl = [a]) ->
  pre ++ tl = l1 ++ e :: l2 -> l1 = pre /\ tl = [e] /\ l2 = [].
Proof.
  induction pre as [|x pre IH]; intros tl l1 e l2 RF He Htl H.
  - cbn in H. destruct Htl as [->|(a & ->)]; [destruct l1; discriminate|].
    destruct l1 as [|y l1]; cbn in H; injection H as -> H;
      [subst; auto|destruct l1; discriminate].
  - destruct l1 as [|y l1]; cbn in H; injection H as -> H.
    + rewrite (RF e) in He; [discriminate|left; reflexivity].
    + destruct (IH tl l1 e l2) as (-> & E2 & E3); auto.
      intros z Hz. apply RF. right. exact Hz.
Qed.

Lemma pop_spec : forall i ps e ps', pop i ps = Some (e, ps') ->
  exists t, nth_error ps i = Some (e :: t) /\ nth_error ps' i = Some t /\
            forall j, j <> i -> nth_error ps' j = nth_error ps j.
Proof.
  induction i as [|i IH]; intros ps e ps' H; destruct ps as [|p ps]; cbn in H; try discriminate.
  - destruct p as [|e0 p]; [discriminate|]. injection H as <- <-.
    exists p. repeat split. intros [|j] Hj; [congruence|reflexivity].
  - destruct (pop i ps) as [[e0 r]|] eqn:P; [|discriminate]. injection H as <- <-.
    destruct (IH _ _ _ P) as (t & H1 & H2 & H3). exists t. repeat split; auto.
    intros [|j] Hj; [reflexivity|]. cbn. apply H3. congruence.
Qed.

Lemma project_cons_same : forall i e g, project i ((i, e) :: g) = e :: project i g.
Proof. intros. unfold project. cbn. rewrite N.eqb_refl. reflexivity. Qed.

Lemma project_cons_other : forall i j e g, j <> i -> project i ((j, e) :: g) = project i g.
Proof.
  intros i j e g H. unfold project. cbn. apply N.eqb_neq in H. rewrite H. reflexivity.
Qed.

Lemma project_app : forall i a b, project i (a ++ b) = project i a ++ project i b.
Proof. intros. unfold project. rewrite filter_app, map_app. reflexivity. Qed.

Lemma project_in : forall i e g, In e (project i g) -> In (i, e) g.
Proof.
  intros i e g H. unfold project in H. apply in_map_iff in H.
  destruct H as ([j e'] & He & Hf). apply filter_In in Hf. destruct Hf as (Hin & Hj).
  cbn in *. apply N.eqb_eq in Hj. subst. exact Hin.
Qed.

Lemma project_run : forall sched ps i,
  match nth_error ps (N.to_nat i) with
  | Some t => exists rest, t = project i (run_sched sched ps) ++ rest
  | None => project i (run_sched sched ps) = []
  end.
Proof.
  induction sched as [|j s IH]; intros ps i; cbn [run_sched].
  - destruct (nth_error ps (N.to_nat i)) as [t|]; [exists t|]; reflexivity.
  - destruct (pop (N.to_nat j) ps) as [[e ps']|] eqn:P; [|apply IH].
    destruct (pop_spec _ _ _ _ P) as (t' & H1 & H2 & H3). specialize (IH ps' i).
    destruct (N.eq_dec j i) as [->|Hne].
    + rewrite project_cons_same, H1. rewrite H2 in IH. destruct IH as (rest & ->).
      exists rest. reflexivity.
    + rewrite project_cons_other by exact Hne. rewrite H3 in IH; [exact IH|].
      intros E. exact (Hne (eq_sym (N2Nat.inj _ _ E))).
Qed.

Lemma concurrent_answer : forall relay msgs sched g1 g2 i e,
  concurrent_run relay msgs sched = g1 ++ (i, e) :: g2 -> is_reply_event e = true ->
  exists m, nth_error msgs (N.to_nat i) = Some m /\
    msg_answer relay m = [e] /\ project i g1 = msg_pre relay m.
Proof.
  intros relay msgs sched g1 g2 i e H He. unfold concurrent_run in H.
  pose proof (project_run sched (map (msg_trace relay) msgs) i) as P.
  rewrite H, project_app, project_cons_same, nth_error_map in P.
  destruct (nth_error msgs (N.to_nat i)) as [m|]; cbn in P;
    [|destruct (app_cons_not_nil _ _ _ (eq_sym P))].
  destruct P as (rest & Hp). exists m. split; [reflexivity|].
  rewrite msg_trace_split, <- app_assoc in Hp. cbn in Hp.
  destruct (answer_position _ _ _ _ _ (msg_pre_reply_free relay m) He
              (msg_answer_short relay m) Hp) as (E1 & E2 & _). auto.
Qed.

Lemma own_stored : forall relay m rs i g1,
  q_res (queue_enqueue relay (m_bs m)) = Returned rs -> rs <> [] /\ all_ids rs ->
  project i g1 = msg_pre relay m ->
  m_bs m <> [] /\
  forall k b, nth_error (m_bs m) k = Some b ->
    exists d, b = Done d WId /\ In (i, EvWriteDone (N.of_nat k)) g1.
Proof.
  intros relay m rs i g1 Q [Hne Hall] Hp.
  destruct (queue_ack _ _ _ Q Hne Hall) as (Hbs & Hst & _). split; [exact Hbs|].
  intros k b Hk. destruct (Hst k b Hk) as (d & -> & Hin). exists d. split; [reflexivity|].
  apply project_in. rewrite Hp. apply in_or_app. right. exact Hin.
Qed.

Lemma answer_is_own : forall relay msgs sched i m e,
  nth_error msgs (N.to_nat i) = Some m -> In (i, e) (concurrent_run relay msgs sched) ->
  is_reply_event e = true -> msg_answer relay m = [e].
Proof.
  intros relay msgs sched i m e Hm Hin He. apply in_split in Hin. destruct Hin as (g1 & g2 & E).
  destruct (concurrent_answer _ _ _ _ _ _ _ E He) as (m' & Hm' & Ha & _). congruence.
Qed.

Lemma answers_agree : forall relay msgs msgs' sched sched' i m e e',
  nth_error msgs (N.to_nat i) = Some m -> nth_error msgs' (N.to_nat i) = Some m ->
  In (i, e) (concurrent_run relay msgs sched) -> In (i, e') (concurrent_run relay msgs' sched') ->
  is_reply_event e = true -> is_reply_event e' = true -> e = e'.
Proof.
  intros relay msgs msgs' sched sched' i m e e' Hm Hm' H H' He He'.
  pose proof (answer_is_own _ _ _ _ _ _ Hm H He) as A.
  rewrite (answer_is_own _ _ _ _ _ _ Hm' H' He') in A. congruence.
Qed.

Example ex_concurrent :
  concurrent_run false
    [mkMsg ESmtp 1 [Done 0 WId; Done 0 WId]; mkMsg EWsgi 1 [Done 1 WId]]
    [0; 1; 1; 0; 1; 1; 0; 0; 0; 1; 0; 7; 0] =
  [(0, EvTick); (1, EvTick); (1, EvWriteStart 0); (0, EvWriteStart 0); (1, EvTick); (1, EvWriteDone 0);
   (0, EvWriteDone 0); (0, EvWriteStart 1); (0, EvWriteDone 1); (1, EvHttpStatus 204); (0, EvSmtpReply code_250)].
Proof. reflexivity. Qed.

(* server state s against the view w the client builds from reply codes alone: both
   agree on whether a transaction is open, and while one is open the envelope holds
   exactly the recipients the client saw accepted *)
Definition sess_rel (s : sstate) (w : view) : Prop :=
  s_mail s = fst w /\ (s_mail s = true -> s_env s = Some (snd w)).

(* a refused command leaves state and view as they were; EHLO/HELO, RSET and a data
   phase close the transaction on both sides *)
Lemma sstep_inv : forall s w c s' o, sess_rel s w -> sstep s c = (s', o) ->
  sess_rel s' (view_step w c (replies_of o)) /\
  Forall (fun x => match x with OHandoff l => l = snd w | OReply _ => True end) o.
Proof.
  intros s [wo wa] c s' o [Rm Re] H. cbn [fst snd] in *.
  assert (Keep : sess_rel s (wo, wa)) by (split; assumption).
  assert (Closed : forall h, sess_rel (mkS h false false None) (false, []))
    by (intros h; split; [reflexivity|discriminate]).
  destruct c as [v|v| |v|a v|v hv q|]; cbn [sstep] in H; rewrite ?Rm in H.
  - destruct (v =? 250) eqn:E; injection H as <- <-; cbn; rewrite E; auto.
  - destruct (v =? 250) eqn:E; injection H as <- <-; cbn; rewrite E; auto.
  - injection H as <- <-. auto.
  - destruct (negb (s_helo s)); [injection H as <- <-; auto|].
    destruct wo; [injection H as <- <-; auto|].
    destruct (v =? 250) eqn:E; injection H as <- <-; cbn; rewrite E; [|auto].
    split; [split; reflexivity|auto].
  - destruct wo; cbn [negb] in H; [|injection H as <- <-; auto].
    destruct (v =? 250) eqn:E; injection H as <- <-; cbn; rewrite E; [|auto].
    split; [|auto]. split; cbn; [reflexivity|]. rewrite (Re Rm). reflexivity.
  - destruct wo; cbn [negb orb] in H; [|injection H as <- <-; auto].
    destruct (negb (s_rcpt s)); [injection H as <- <-; auto|].
    destruct (v =? 354) eqn:E; cbn [negb] in H; [|injection H as <- <-; cbn; rewrite E; auto].
    destruct (hv =? 250); cbn [negb] in H; injection H as <- <-; cbn; rewrite E; [|auto].
    rewrite (Re Rm). auto.
  - injection H as <- <-. auto.
Qed.

Lemma handoffs_exact : forall cs s w, sess_rel s w ->
  forall accepted envelope, In (accepted, envelope) (handoffs w (srun s cs)) -> envelope = accepted.
Proof.
  induction cs as [|c cs IH]; intros s w R a e Hin; [destruct Hin|].
  cbn [srun] in Hin. destruct (sstep s c) as [s' o] eqn:S. cbn [handoffs] in Hin.
  destruct (sstep_inv _ _ _ _ _ R S) as (R' & HO). rewrite Forall_forall in HO.
  apply in_app_or in Hin. destruct Hin as [Hin|Hin]; [|exact (IH _ _ R' _ _ Hin)].
  apply in_flat_map in Hin. destruct Hin as ([c0|l] & Hx & Hp); [destruct Hp|].
  destruct Hp as [[= <- <-]|[]]. exact (HO _ Hx).
Qed.

(* the C02-6 scenario: two accepted recipients, DATA refused, a third recipient,
   DATA accepted - the envelope holds all three; then a second transaction *)
Example ex_session :
  handoffs (false, [])
    (srun s_init [SEhlo 250; SMail 250; SRcpt 1 250; SRcpt 2 550; SRcpt 3 250; SData 451 250 250;
                  SRcpt 4 250; SData 354 250 250; SMail 250; SRcpt 5 250; SRset; SMail 250; SRcpt 6 250;
                  SData 354 550 250; SMail 250; SRcpt 7 250; SData 354 250 451]) =
  [([1; 3; 4], [1; 3; 4]); ([7], [7])].
Proof. reflexivity. Qed.

Example ex_exception_families :
  snd (smtp_run true [Done 0 WId; Done 0 (WExc ExException)]) = Replied code_421 /\
  snd (wsgi_run true [Done 0 WId; Done 0 (WExc ExException)]) = Replied 500 /\
  snd (smtp_run true [Done 0 WId; Done 0 (WExc ExTimeout)]) = Replied code_421 /\
  snd (wsgi_run true [Done 0 WId; Done 0 (WExc ExTimeout)]) = Dropped /\
  snd (smtp_run true [Done 1 (WExc ExBase); Done 0 WId]) = Dropped /\
  snd (wsgi_run true [Done 1 (WExc ExBase); Done 0 WId]) = Dropped /\
  q_attempts (queue_enqueue true [Done 0 WId; Done 0 (WExc ExTimeout); Done 0 WId]) = [0] /\
  base_only (Done 0 (WExc ExTimeout)) = true /\ failed_write (Done 0 (WExc ExBase)) = true.
Proof. repeat split. Qed.
