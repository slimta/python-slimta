(* Lemmas about the delivered-marking round functions of model/StoreCore.v. *)
From Coq Require Import List NArith Bool Lia Sorting.Sorted Permutation.
From SV Require Import model.StoreCore proof.List_lemmas.
Import ListNotations.
Open Scope N_scope.

Lemma del_nth_app_len {A} (pre : list A) x t :
  del_nth (length pre) (pre ++ x :: t) = Some (pre ++ t).
Proof.
  induction pre as [|y pre IH]; cbn [length app del_nth]; [reflexivity|].
  rewrite IH. reflexivity.
Qed.

Lemma del_nth_some_lt {A} n (l : list A) :
  (n < length l)%nat -> exists l', del_nth n l = Some l' /\ length l = S (length l').
Proof.
  revert n; induction l as [|x l IH]; intros n Hn; cbn [length] in Hn; [lia|].
  destruct n as [|n]; cbn [del_nth].
  - eexists; split; [reflexivity|reflexivity].
  - destruct (IH n) as (l' & E & L); [lia|]. rewrite E. cbn [option_map].
    eexists; split; [reflexivity|]. cbn [length]. lia.
Qed.

Lemma del_nth_none_ge {A} n (l : list A) : (length l <= n)%nat -> del_nth n l = None.
Proof.
  revert n; induction l as [|x l IH]; intros n Hn; [destruct n; reflexivity|].
  cbn [length] in Hn. destruct n as [|n]; [lia|]. cbn [del_nth]. rewrite IH by lia. reflexivity.
Qed.

Lemma replay_p_app {A} (a b : list N) (l : list A) :
  replay_p (a ++ b) l =
  match replay_p a l with (l', true) => replay_p b l' | (l', false) => (l', false) end.
Proof.
  revert l; induction a as [|i a IH]; intros l; cbn [app replay_p]; [reflexivity|].
  destruct (del_nth (N.to_nat i) l) as [l'|]; [apply IH|reflexivity].
Qed.

Lemma replay_app {A} (a b : list N) (l : list A) :
  replay (a ++ b) l = match replay a l with Some l' => replay b l' | None => None end.
Proof.
  unfold replay. rewrite replay_p_app.
  destruct (replay_p a l) as [l' [|]]; reflexivity.
Qed.

Lemma replay_nil {A} (l : list A) : replay [] l = Some l.
Proof. reflexivity. Qed.

Lemma replay_p_replay {A} sc (l : list A) :
  replay sc l = (if snd (replay_p sc l) then Some (fst (replay_p sc l)) else None).
Proof. unfold replay. destruct (replay_p sc l) as [l' [|]]; reflexivity. Qed.

Lemma insert_desc_small x m : (forall y, In y m -> x < y) -> insert_desc x m = m ++ [x].
Proof.
  induction m as [|y m IH]; intros H; cbn [insert_desc app]; [reflexivity|].
  assert (Hy : x < y) by (apply H; left; reflexivity).
  destruct (N.leb_spec y x); [lia|]. rewrite IH; [reflexivity|].
  intros z Hz; apply H; right; exact Hz.
Qed.

Lemma sort_desc_ascending l : StronglySorted N.lt l -> sort_desc l = rev l.
Proof.
  induction 1 as [|x l Hs IH Hx]; [reflexivity|].
  cbn [sort_desc fold_right rev]. change (fold_right insert_desc [] l) with (sort_desc l).
  rewrite IH. apply insert_desc_small. intros y Hy.
  rewrite Forall_forall in Hx. apply Hx. apply in_rev. exact Hy.
Qed.

Lemma insert_desc_perm x l : Permutation (x :: l) (insert_desc x l).
Proof.
  induction l as [|y l IH]; cbn [insert_desc]; [apply Permutation_refl|].
  destruct (y <=? x); [apply Permutation_refl|].
  eapply Permutation_trans; [apply perm_swap|]. apply perm_skip. exact IH.
Qed.

Lemma sort_desc_perm_self l : Permutation l (sort_desc l).
Proof.
  induction l as [|x l IH]; [apply Permutation_refl|].
  cbn [sort_desc fold_right]. change (fold_right insert_desc [] l) with (sort_desc l).
  eapply Permutation_trans; [apply perm_skip; exact IH|]. apply insert_desc_perm.
Qed.

(* listings (KEYS, listdir) are taken in ascending order: the same elements *)
Lemma sorted_asc_perm l : Permutation l (rev (sort_desc l)).
Proof. eapply Permutation_trans; [apply sort_desc_perm_self|apply Permutation_rev]. Qed.

Lemma sorted_asc_In x l : In x (rev (sort_desc l)) <-> In x l.
Proof. split; apply Permutation_in; [apply Permutation_sym|]; apply sorted_asc_perm. Qed.

Definition ge_rel (a b : N) : Prop := b <= a.

Lemma insert_desc_sorted x l : StronglySorted ge_rel l -> StronglySorted ge_rel (insert_desc x l).
Proof.
  induction 1 as [|y l Hs IH Hy]; cbn [insert_desc].
  - constructor; constructor.
  - destruct (N.leb_spec y x).
    + constructor; [constructor; assumption|].
      constructor; [unfold ge_rel; lia|].
      rewrite Forall_forall in *. intros z Hz. specialize (Hy z Hz). unfold ge_rel in *. lia.
    + constructor; [exact IH|].
      rewrite Forall_forall in *. intros z Hz.
      apply (Permutation_in _ (Permutation_sym (insert_desc_perm x l))) in Hz.
      destruct Hz as [<-|Hz]; [unfold ge_rel; lia|apply Hy; exact Hz].
Qed.

Lemma sort_desc_sorted l : StronglySorted ge_rel (sort_desc l).
Proof.
  induction l as [|x l IH]; [constructor|].
  cbn [sort_desc fold_right]. apply insert_desc_sorted. exact IH.
Qed.

(* sorted(...) does not depend on the order in which a set is iterated *)
Lemma sorted_ge_unique a b :
  StronglySorted ge_rel a -> StronglySorted ge_rel b -> Permutation a b -> a = b.
Proof.
  intros Ha; revert b; induction Ha as [|x a Ha IH Hx]; intros b Hb P.
  - apply Permutation_nil in P. subst; reflexivity.
  - destruct b as [|y b]; [apply Permutation_sym, Permutation_nil in P; discriminate|].
    inversion Hb as [|? ? Hb' Hy]; subst.
    assert (x = y).
    { rewrite Forall_forall in Hx, Hy.
      assert (I1 : In x (y :: b)) by (eapply Permutation_in; [exact P|left; reflexivity]).
      assert (I2 : In y (x :: a)) by (eapply Permutation_in; [apply Permutation_sym; exact P|left; reflexivity]).
      destruct I1 as [->|I1]; [reflexivity|]. destruct I2 as [->|I2]; [reflexivity|].
      specialize (Hx y I2). specialize (Hy x I1). unfold ge_rel in *. lia. }
    subst y. f_equal. apply IH; [exact Hb'|]. eapply Permutation_cons_inv; exact P.
Qed.

Lemma sort_desc_perm a b : Permutation a b -> sort_desc a = sort_desc b.
Proof.
  intros P. apply sorted_ge_unique; try apply sort_desc_sorted.
  eapply Permutation_trans; [apply Permutation_sym, sort_desc_perm_self|].
  eapply Permutation_trans; [exact P|apply sort_desc_perm_self].
Qed.

Lemma nodupb_NoDup l : nodupb l = true -> NoDup l.
Proof.
  induction l as [|x l IH]; cbn [nodupb]; intros H; [constructor|].
  apply andb_prop in H as [H1 H2]. constructor; [|apply IH; exact H2].
  intros Hin. apply negb_true_iff in H1.
  assert (existsb (N.eqb x) l = true) by (apply existsb_exists; exists x; split; [exact Hin|apply N.eqb_refl]).
  congruence.
Qed.

Lemma replay_desc_ok {A} sc (l : list A) :
  StronglySorted ge_rel sc -> NoDup sc -> (forall i, In i sc -> (N.to_nat i < length l)%nat) ->
  exists l', replay sc l = Some l'.
Proof.
  intros Hs; revert l; induction Hs as [|i sc Hs IH Hi]; intros l Hnd Hr.
  - eexists; reflexivity.
  - destruct (del_nth_some_lt (N.to_nat i) l) as (l1 & E & L); [apply Hr; left; reflexivity|].
    inversion Hnd as [|? ? Hni Hnd']; subst.
    destruct (IH l1 Hnd') as (l' & E').
    { intros j Hj. rewrite Forall_forall in Hi. specialize (Hi j Hj). unfold ge_rel in Hi.
      assert (j <> i) by (intros ->; contradiction).
      assert (N.to_nat i < length l)%nat by (apply Hr; left; reflexivity). lia. }
    exists l'. unfold replay in *. cbn [replay_p]. rewrite E. exact E'.
Qed.

Lemma round_ok {A} idxs (l : list A) :
  nodupb idxs = true -> forallb (fun i => i <? N.of_nat (length l)) idxs = true ->
  exists l', round idxs l = Some l'.
Proof.
  intros Hn Hr. unfold round. apply replay_desc_ok.
  - apply sort_desc_sorted.
  - eapply Permutation_NoDup; [apply sort_desc_perm_self|apply nodupb_NoDup; exact Hn].
  - intros i Hi. apply (Permutation_in _ (Permutation_sym (sort_desc_perm_self idxs))) in Hi.
    rewrite forallb_forall in Hr. pose proof (proj1 (N.ltb_lt _ _) (Hr i Hi)). lia.
Qed.

Lemma round_round_p {A} idxs (l l' : list A) :
  round idxs l = Some l' -> round_p idxs l = (l', true).
Proof.
  unfold round, round_p, replay. destruct (replay_p (sort_desc idxs) l) as [l1 [|]]; intros H; inversion H; reflexivity.
Qed.

Lemma positions_lower {A} (p : A -> bool) l from i : In i (positions p l from) -> from <= i.
Proof.
  revert from; induction l as [|x l IH]; intros from; cbn [positions]; [intros []|].
  destruct (p x); cbn [In]; intros H.
  - destruct H as [<-|H]; [lia|]. specialize (IH _ H). lia.
  - specialize (IH _ H). lia.
Qed.

Lemma positions_sorted {A} (p : A -> bool) l from : StronglySorted N.lt (positions p l from).
Proof.
  revert from; induction l as [|x l IH]; intros from; cbn [positions]; [constructor|].
  destruct (p x); [|apply IH].
  constructor; [apply IH|]. rewrite Forall_forall. intros i Hi.
  apply positions_lower in Hi. lia.
Qed.

Lemma replay_rev_positions {A} (p : A -> bool) l pre from :
  N.to_nat from = length pre ->
  replay (rev (positions p l from)) (pre ++ l) = Some (pre ++ filter (fun x => negb (p x)) l).
Proof.
  revert pre from; induction l as [|x l IH]; intros pre from Hf; cbn [positions filter].
  - reflexivity.
  - assert (IH' := IH (pre ++ [x]) (from + 1)).
    rewrite <- app_assoc in IH'. cbn [app] in IH'.
    assert (Hl : N.to_nat (from + 1) = length (pre ++ [x])) by (rewrite app_length; cbn [length]; lia).
    specialize (IH' Hl).
    destruct (p x); cbn [negb].
    + cbn [rev]. rewrite replay_app, IH'. unfold replay. cbn [replay_p].
      rewrite <- app_assoc. cbn [app]. rewrite Hf, del_nth_app_len. reflexivity.
    + rewrite IH'. rewrite <- app_assoc. reflexivity.
Qed.

Lemma round_positions {A} (p : A -> bool) (l : list A) :
  round (positions p l 0) l = Some (filter (fun x => negb (p x)) l).
Proof.
  unfold round. rewrite sort_desc_ascending by apply positions_sorted.
  apply (replay_rev_positions p l [] 0). reflexivity.
Qed.

Definition unsettled {A} (settles : list (A -> bool)) (x : A) : bool :=
  forallb (fun p => negb (p x)) settles.

Lemma rounds_inplace_spec {A} (settles : list (A -> bool)) (l : list A) :
  rounds_inplace settles l = Some (filter (unsettled settles) l).
Proof.
  revert l; induction settles as [|p ps IH]; intros l; cbn [rounds_inplace].
  - f_equal. symmetry. unfold unsettled. cbn [forallb].
    induction l as [|x l IHl]; [reflexivity|]. cbn [filter]. f_equal. exact IHl.
  - rewrite round_positions, IH, filter_filter. f_equal.
Qed.

Lemma accum_get_mark {A} stored idxs (orig cur : list A) :
  accum_get stored orig = Some cur ->
  accum_get (accum_mark stored idxs) orig = round idxs cur.
Proof.
  intros H. unfold accum_get, accum_mark. rewrite replay_app.
  unfold accum_get in H. rewrite H. reflexivity.
Qed.

Lemma rounds_accum_inplace {A} (settles : list (A -> bool)) (orig cur : list A) stored :
  accum_get stored orig = Some cur ->
  rounds_accum accum_mark accum_get settles orig stored = rounds_inplace settles cur.
Proof.
  revert cur stored; induction settles as [|p ps IH]; intros cur stored Hg; cbn [rounds_accum rounds_inplace].
  - exact Hg.
  - rewrite Hg, round_positions. apply IH. rewrite (accum_get_mark _ _ _ _ Hg). apply round_positions.
Qed.

(* the shipped flat accumulation (D6): [a;b;c], round 1 settles a, round 2
   settles c => get returns [c]: b dropped, c kept *)
Example rounds_flat_witness :
  rounds_accum flat_mark flat_get [N.eqb 1; N.eqb 3] [1; 2; 3] [] = Some [3]
  /\ rounds_accum accum_mark accum_get [N.eqb 1; N.eqb 3] [1; 2; 3] [] = Some [2].
Proof. split; vm_compute; reflexivity. Qed.
