(* C13 - lemmas about model/Bounce.v.  Grouping: split_by_reply in closed form (split_normal),
   invariance under the order of a mapping (groups_invariant, classify_perm).  Rendering: the
   boundary search, the default templates as parts, render_default_eq, bounce_new_spec.
   Dispatch: bounces_dispatch.  Runs: the two invariants of run_events.  Then the examples. *)
From Coq Require Import String.
From Coq Require Import List NArith Bool Permutation PeanoNat.
From SV Require Import lib.Val lib.Bytes model.Reply model.Bounce proof.List_lemmas proof.Bytes_lemmas.
Import ListNotations.
Open Scope N_scope.

Lemma filter_perm : forall (A : Type) (f : A -> bool) (l l' : list A),
  Permutation l l' -> Permutation (filter f l) (filter f l').
Proof.
  intros A f l l' H. induction H as [|x l l' H IH|x y l|l l' l'' H1 IH1 H2 IH2].
  - apply Permutation_refl.
  - cbn [filter]. destruct (f x); [apply perm_skip|]; exact IH.
  - cbn [filter]. destruct (f x); destruct (f y); try apply Permutation_refl. apply perm_swap.
  - eapply Permutation_trans; eassumption.
Qed.

Lemma forallb_perm : forall (A : Type) (f : A -> bool) (l l' : list A),
  Permutation l l' -> forallb f l = forallb f l'.
Proof.
  intros A f l l' H. apply eq_true_iff_eq. rewrite !forallb_forall.
  split; intros Hf x Hx; apply Hf; eapply Permutation_in; try eassumption. symmetry. assumption.
Qed.

(* what Reply.__eq__ compares *)
Definition rkey (r : freply) : list N * option text := (r_code (fr r), msg_opt r).

Lemma otext_eqb_eq : forall a b, otext_eqb a b = true <-> a = b.
Proof.
  destruct a, b; cbn [otext_eqb]; [change list_N_eqb with beqb; rewrite beqb_eq|..]; split; congruence.
Qed.

Lemma freply_eqbP : forall a b, reflect (rkey a = rkey b) (freply_eqb a b).
Proof.
  intros a b. apply iff_reflect. unfold freply_eqb, rkey. change list_N_eqb with beqb.
  rewrite andb_true_iff, beqb_eq, otext_eqb_eq. split; [intro H; inversion H; auto|intros [-> ->]; reflexivity].
Qed.

Definition gkeys (gs : list (freply * list text)) : list (list N * option text) :=
  map (fun g => rkey (fst g)) gs.

Definition with_reply (r : freply) (fails : list (text * freply)) : list text :=
  map fst (filter (fun p => freply_eqb (snd p) r) fails).

(* first reply of every class, in order of first appearance *)
Definition snoc_new (acc : list freply) (r : freply) : list freply :=
  if existsb (freply_eqb r) acc then acc else acc ++ [r].
Definition firsts (rs : list freply) : list freply := fold_left snoc_new rs [].

Definition add1 (gs : list (freply * list text)) (p : text * freply) :=
  add_group gs (snd p) (fst p).

Lemma split_snoc : forall fails p, split_by_reply (fails ++ [p]) = add1 (split_by_reply fails) p.
Proof. intros. unfold split_by_reply. apply fold_left_app. Qed.

Lemma existsb_key : forall r F, existsb (freply_eqb r) F = true <-> In (rkey r) (map rkey F).
Proof.
  intros r F. rewrite existsb_exists, in_map_iff.
  split; intros [x [H1 H2]]; exists x; destruct (freply_eqbP r x); split; congruence.
Qed.

Lemma firsts_snoc : forall rs r, firsts (rs ++ [r]) = snoc_new (firsts rs) r.
Proof. intros. unfold firsts. rewrite fold_left_app. reflexivity. Qed.

Lemma firsts_spec : forall rs,
  NoDup (map rkey (firsts rs)) /\ forall k, In k (map rkey (firsts rs)) <-> In k (map rkey rs).
Proof.
  induction rs as [|r rs [Hnd Hk]] using rev_ind; [split; [constructor|reflexivity]|].
  rewrite firsts_snoc. unfold snoc_new. destruct (existsb (freply_eqb r) (firsts rs)) eqn:E.
  - split; [exact Hnd|]. intro k. rewrite map_app, in_app_iff, Hk.
    apply existsb_key, Hk in E. split; [auto|]. intros [H|[<-|[]]]; assumption.
  - assert (Hn : ~ In (rkey r) (map rkey (firsts rs))) by (rewrite <- existsb_key, E; discriminate).
    rewrite !map_app. split; [apply NoDup_snoc; assumption|].
    intro k. rewrite !in_app_iff, Hk. reflexivity.
Qed.

Lemma firsts_nodup : forall rs, NoDup (map rkey (firsts rs)).
Proof. apply firsts_spec. Qed.

Lemma firsts_keys : forall rs k, In k (map rkey (firsts rs)) <-> In k (map rkey rs).
Proof. apply firsts_spec. Qed.

(* add_group on groups given as a function f of their first reply: the new
   recipient joins the group with its key, or opens a group when no key matches *)
Lemma add_group_map : forall (f : freply -> list text) F r rc,
  NoDup (map rkey F) ->
  add_group (map (fun r0 => (r0, f r0)) F) r rc =
  map (fun r0 => (r0, f r0 ++ if freply_eqb r r0 then [rc] else [])) F ++
  (if existsb (freply_eqb r) F then [] else [(r, [rc])]).
Proof.
  induction F as [|a F IH]; intros r rc Hnd; [reflexivity|].
  inversion Hnd as [|? ? Ha HF]; subst. cbn [map add_group existsb].
  destruct (freply_eqbP r a) as [E|E]; cbn [orb app].
  - rewrite app_nil_r. f_equal. apply map_ext_in. intros r0 Hr0.
    destruct (freply_eqbP r r0) as [E0|_]; [|rewrite app_nil_r; reflexivity].
    destruct Ha. rewrite <- E, E0. apply in_map. exact Hr0.
  - rewrite (IH r rc HF), app_nil_r. reflexivity.
Qed.

Lemma with_reply_snoc : forall r seen rc r',
  with_reply r (seen ++ [(rc, r')]) =
  with_reply r seen ++ (if freply_eqb r' r then [rc] else []).
Proof.
  intros. unfold with_reply. rewrite filter_app, map_app. cbn [filter snd].
  destruct (freply_eqb r' r); reflexivity.
Qed.

Lemma with_reply_none : forall r fails,
  ~ In (rkey r) (map rkey (map snd fails)) -> with_reply r fails = [].
Proof.
  intros r fails H. unfold with_reply. rewrite existsb_false_filter; [reflexivity|].
  apply not_true_is_false. rewrite existsb_exists. intros [p [Hp E]]. apply H.
  destruct (freply_eqbP (snd p) r) as [<-|]; [|discriminate]. apply in_map, in_map, Hp.
Qed.

Lemma with_reply_in : forall r fails rc r',
  In (rc, r') fails -> rkey r' = rkey r -> In rc (with_reply r fails).
Proof.
  intros r fails rc r' Hin E. apply (in_map fst _ (rc, r')), filter_In. split; [exact Hin|].
  cbn [snd]. destruct (freply_eqbP r' r); congruence.
Qed.

Lemma with_reply_key : forall r r' fails, rkey r = rkey r' -> with_reply r fails = with_reply r' fails.
Proof.
  intros r r' fails E. unfold with_reply. f_equal. apply filter_ext. intro p.
  destruct (freply_eqbP (snd p) r), (freply_eqbP (snd p) r'); congruence.
Qed.

Theorem split_normal : forall fails,
  split_by_reply fails = map (fun r => (r, with_reply r fails)) (firsts (map snd fails)).
Proof.
  induction fails as [|[rc r] fails IH] using rev_ind; [reflexivity|].
  rewrite split_snoc. unfold add1. cbn [fst snd].
  rewrite IH, add_group_map, (map_app snd) by apply firsts_nodup. cbn [map snd].
  rewrite firsts_snoc. unfold snoc_new.
  destruct (existsb (freply_eqb r) (firsts (map snd fails))) eqn:E.
  - rewrite app_nil_r. apply map_ext. intro r0. apply f_equal, eq_sym, with_reply_snoc.
  - rewrite map_app. cbn [map]. f_equal; [apply map_ext; intro r0; apply f_equal, eq_sym, with_reply_snoc|].
    rewrite with_reply_snoc, with_reply_none; [destruct (freply_eqbP r r); [reflexivity|congruence]|].
    rewrite <- firsts_keys, <- existsb_key, E. discriminate.
Qed.

Lemma in_split : forall fails r l,
  In (r, l) (split_by_reply fails) <-> In r (firsts (map snd fails)) /\ l = with_reply r fails.
Proof.
  intros fails r l. rewrite split_normal, in_map_iff. split.
  - intros [r0 [E H]]. inversion E; subst. auto.
  - intros [H ->]. exists r. auto.
Qed.

Lemma gkeys_split : forall fails, gkeys (split_by_reply fails) = map rkey (firsts (map snd fails)).
Proof. intro fails. unfold gkeys. rewrite split_normal, map_map. reflexivity. Qed.

Lemma split_exact : forall fails r l,
  In (r, l) (split_by_reply fails) -> l = with_reply r fails /\ l <> [].
Proof.
  intros fails r l H. apply in_split in H as [Hr ->]. split; [reflexivity|].
  apply (in_map rkey) in Hr. rewrite firsts_keys, map_map in Hr.
  apply in_map_iff in Hr as [[rc r'] [E Hp]]. intro Hnil.
  apply (with_reply_in r _ _ _ Hp) in E. rewrite Hnil in E. exact E.
Qed.

Lemma split_nodup : forall fails, NoDup (gkeys (split_by_reply fails)).
Proof. intro fails. rewrite gkeys_split. apply firsts_nodup. Qed.

Lemma split_cover : forall fails rc r,
  In (rc, r) fails -> exists r0 l, In (r0, l) (split_by_reply fails) /\ freply_eqb r r0 = true.
Proof.
  intros fails rc r H.
  assert (Hk : In (rkey r) (map rkey (firsts (map snd fails)))).
  { rewrite firsts_keys. apply in_map, (in_map snd _ (rc, r)), H. }
  apply in_map_iff in Hk as [r0 [E Hr0]]. exists r0, (with_reply r0 fails).
  split; [apply in_split; auto|]. destruct (freply_eqbP r r0); congruence.
Qed.

Lemma split_firsts : forall fails, map fst (split_by_reply fails) = firsts (map snd fails).
Proof. intro fails. rewrite split_normal, map_map. apply map_id. Qed.

Lemma add_group_perm : forall gs r rc,
  Permutation (concat (map snd (add_group gs r rc))) (rc :: concat (map snd gs)).
Proof.
  induction gs as [|[r0 l] gs IH]; intros r rc.
  - apply Permutation_refl.
  - cbn [add_group]. destruct (freply_eqb r r0); cbn [map snd concat].
    + rewrite app_comm_cons. apply Permutation_app_tail, Permutation_sym, Permutation_cons_append.
    + rewrite IH. apply Permutation_sym, Permutation_middle.
Qed.

Lemma split_perm : forall fails,
  Permutation (map fst fails) (concat (map snd (split_by_reply fails))).
Proof.
  induction fails as [|p fails IH] using rev_ind; [apply Permutation_refl|].
  rewrite split_snoc, map_app. unfold add1. cbn [map].
  rewrite add_group_perm, <- IH. apply Permutation_sym, Permutation_cons_append.
Qed.

Definition groups_equiv (gs gs' : list (freply * list text)) : Prop :=
  List.length gs = List.length gs' /\
  forall r l, In (r, l) gs ->
    exists r' l', In (r', l') gs' /\ freply_eqb r r' = true /\ Permutation l l'.

Theorem groups_invariant : forall fails fails' : list (text * freply),
  Permutation fails fails' ->
  groups_equiv (split_by_reply fails) (split_by_reply fails').
Proof.
  intros fails fails' HP.
  assert (Hk : forall k, In k (map rkey (firsts (map snd fails))) <->
                         In k (map rkey (firsts (map snd fails')))).
  { intro k. rewrite !firsts_keys.
    split; apply Permutation_in; [|symmetry]; do 2 apply Permutation_map; exact HP. }
  split.
  - (* the key lists are duplicate-free with the same elements *)
    rewrite <- (map_length (fun g => rkey (fst g))), <- (map_length (fun g => rkey (fst g)) (split_by_reply fails')).
    fold (gkeys (split_by_reply fails)) (gkeys (split_by_reply fails')). rewrite !gkeys_split.
    apply Permutation_length, NoDup_Permutation; [apply firsts_nodup..|exact Hk].
  - intros r l Hin. apply in_split in Hin as [Hr ->].
    apply (in_map rkey), Hk, in_map_iff in Hr as [r' [E Hr']].
    exists r', (with_reply r' fails'). split; [apply in_split; auto|].
    split; [destruct (freply_eqbP r r'); congruence|].
    rewrite (with_reply_key r r' fails) by congruence. apply Permutation_map, filter_perm, HP.
Qed.

Definition temps (items : list (text * rres)) : list (text * freply) :=
  flat_map (fun it => match snd it with RRTemp r => [(fst it, r)] | _ => [] end) items.
Definition perms (items : list (text * rres)) : list (text * freply) :=
  flat_map (fun it => match snd it with RRPerm r => [(fst it, r)] | _ => [] end) items.

(* list.index finds the recipient of a result that is marked as delivered *)
Definition item_ok (rcpts : list text) (it : text * rres) : bool :=
  match snd it, index_of (fst it) rcpts 0 with
  | (RROk | RRPerm _), None => false
  | _, _ => true
  end.

Lemma classify_spec : forall rcpts items dl tf pf,
  match classify rcpts items dl tf pf with
  | Some (_, t, p) => forallb (item_ok rcpts) items = true /\ t = tf ++ temps items /\ p = pf ++ perms items
  | None => forallb (item_ok rcpts) items = false
  end.
Proof.
  intros rcpts. induction items as [|[rc res] items IH]; intros dl tf pf.
  - cbn. rewrite !app_nil_r. auto.
  - destruct res as [|r|r|]; cbn [classify forallb temps perms flat_map app andb item_ok fst snd];
      fold (temps items) (perms items).
    + destruct (index_of rc rcpts 0); [apply IH|reflexivity].
    + destruct (index_of rc rcpts 0) as [i|]; [|reflexivity].
      specialize (IH (set_add i dl) tf (pf ++ [(rc, r)])).
      destruct (classify rcpts items _ _ _) as [[[d t] p]|]; [rewrite <- app_assoc in IH|]; exact IH.
    + specialize (IH dl (tf ++ [(rc, r)]) pf).
      destruct (classify rcpts items _ _ _) as [[[d t] p]|]; [rewrite <- app_assoc in IH|]; exact IH.
    + apply IH.
Qed.

Lemma classify_perm : forall rcpts items items' dl tf pf,
  Permutation items items' ->
  classify rcpts items [] [] [] = Some (dl, tf, pf) ->
  exists dl' tf' pf', classify rcpts items' [] [] [] = Some (dl', tf', pf') /\
                      Permutation tf tf' /\ Permutation pf pf'.
Proof.
  intros rcpts items items' dl tf pf HP Hc.
  generalize (classify_spec rcpts items [] [] []), (classify_spec rcpts items' [] [] []).
  rewrite Hc, (forallb_perm _ _ _ _ HP). intros [Hok [-> ->]].
  destruct (classify rcpts items' [] [] []) as [[[dl' tf'] pf']|]; [|congruence].
  intros [_ [-> ->]]. exists dl', (temps items'), (perms items').
  split; [reflexivity|]. split; apply Permutation_flat_map, HP.
Qed.

Definition CRLF2 : bytes := [13; 10; 13; 10].
Definition no_lf (s : bytes) : bool := forallb (fun c => negb (c =? 10)) s.

Lemma pre2_nil : forall o, pre2 [] o = o.
Proof. intros [[c r]|]; reflexivity. Qed.

Lemma pre2_pre2 : forall a b o, pre2 a (pre2 b o) = pre2 (a ++ b) o.
Proof. intros a b [[c r]|]; cbn [pre2]; [rewrite app_assoc|]; reflexivity. Qed.

(* \s*?\n ends at the first line feed at the latest *)
Lemma skip_to_lf_bound : forall A R c rest,
  skip_to_lf (A ++ 10 :: R) = Some (c, rest) ->
  exists m', rest = m' ++ R /\ c ++ m' = A ++ [10].
Proof.
  induction A as [|a A IH]; intros R c rest H; cbn [app skip_to_lf] in H.
  - injection H as <- <-. exists []. split; reflexivity.
  - destruct (N.eqb_spec a 10) as [->|_].
    + injection H as <- <-. exists (A ++ [10]). rewrite <- app_assoc. split; reflexivity.
    + destruct (is_ws a); [|discriminate].
      destruct (skip_to_lf (A ++ 10 :: R)) as [[c' r']|] eqn:E; [|discriminate].
      injection H as <- <-. destruct (IH _ _ _ E) as [m' [H1 H2]].
      exists m'. cbn [app]. rewrite H2. auto.
Qed.

(* so does a match of the whole pattern that starts at least two bytes before a line feed *)
Lemma hb_here_bound : forall a S R h m, S <> [] ->
  hb_here (a :: S ++ 10 :: R) = Some (h, m) ->
  exists m', m = m' ++ R /\ h ++ m' = a :: S ++ [10].
Proof.
  intros a [|t T] R h m HS H; [contradiction|].
  assert (Hp : forall p S, pre2 p (skip_to_lf (S ++ 10 :: R)) = Some (h, m) ->
                           exists m', m = m' ++ R /\ h ++ m' = p ++ S ++ [10]).
  { intros p S Hp. destruct (skip_to_lf (S ++ 10 :: R)) as [[c rest]|] eqn:E; [|discriminate].
    injection Hp as <- <-. apply skip_to_lf_bound in E as [m' [-> E']].
    exists m'. rewrite <- app_assoc, E'. auto. }
  cbn [hb_here app] in H. destruct (a =? 10).
  - exact (Hp [a] (t :: T) H).
  - destruct (a =? 13); [|discriminate]. destruct (t =? 10); [|discriminate].
    exact (Hp [a; t] T H).
Qed.

(* whatever precedes it, the first header boundary ends no later than the first CRLF CRLF *)
Lemma hb_split_bound : forall A R,
  exists h m', hb_split (A ++ CRLF2 ++ R) = Some (h, m' ++ R) /\ h ++ m' = A ++ CRLF2.
Proof.
  induction A as [|a A IH]; intro R.
  - exists CRLF2, []. split; reflexivity.
  - cbn [app hb_split]. destruct (hb_here (a :: A ++ CRLF2 ++ R)) as [[h m]|] eqn:E.
    + replace (A ++ CRLF2 ++ R) with ((A ++ [13; 10; 13]) ++ 10 :: R) in E
        by (rewrite <- app_assoc; reflexivity).
      apply hb_here_bound in E as [m' [-> E']]; [|destruct A; discriminate].
      exists h, m'. split; [reflexivity|]. rewrite E', <- app_assoc. reflexivity.
    + destruct (IH R) as [h [m' [-> E']]]. exists (a :: h), m'. cbn [pre2 app]. rewrite E'. auto.
Qed.

(* every LF is followed, inside the string, by white space other than LF and
   then a byte that is not white space (so no match can start at it) *)
Fixpoint ws_then_nonws (s : bytes) : bool :=
  match s with
  | [] => false
  | c :: s' => if c =? 10 then false else if is_ws c then ws_then_nonws s' else true
  end.

Fixpoint lf_safe (s : bytes) : bool :=
  match s with
  | [] => true
  | b :: s' => (if b =? 10 then ws_then_nonws s' else true) && lf_safe s'
  end.

Definition head_not_lf (T : bytes) : Prop :=
  match T with t :: _ => (t =? 10) = false | [] => True end.

Lemma wtn_skip : forall s T, ws_then_nonws s = true -> skip_to_lf (s ++ T) = None.
Proof.
  induction s as [|c s IH]; intros T H; [discriminate|].
  cbn [ws_then_nonws] in H. cbn [app skip_to_lf].
  destruct (c =? 10); [discriminate|]. destruct (is_ws c); [|reflexivity].
  rewrite (IH T H). reflexivity.
Qed.

Lemma wtn_app : forall s T, ws_then_nonws s = true -> ws_then_nonws (s ++ T) = true.
Proof.
  induction s as [|c s IH]; intros T H; [discriminate|].
  cbn [ws_then_nonws app] in *. destruct (c =? 10); [discriminate|].
  destruct (is_ws c); [apply IH; exact H|reflexivity].
Qed.

Lemma hb_here_safe : forall a A T,
  lf_safe (a :: A) = true -> head_not_lf T -> hb_here ((a :: A) ++ T) = None.
Proof.
  intros a A T Hs HT. cbn [lf_safe] in Hs. apply andb_true_iff in Hs as [H1 H2].
  cbn [app hb_here]. destruct (a =? 10).
  - rewrite (wtn_skip A T H1). reflexivity.
  - destruct (a =? 13); [|reflexivity]. destruct A as [|b2 A]; cbn [app].
    + destruct T as [|t T]; [reflexivity|]. cbn in HT. rewrite HT. reflexivity.
    + cbn [lf_safe] in H2. destruct (b2 =? 10); [|reflexivity].
      apply andb_true_iff in H2 as [H2 _]. rewrite (wtn_skip A T H2). reflexivity.
Qed.

Lemma hb_split_safe : forall A T,
  lf_safe A = true -> head_not_lf T -> hb_split (A ++ T) = pre2 A (hb_split T).
Proof.
  induction A as [|a A IH]; intros T Hs HT; [symmetry; apply pre2_nil|].
  assert (Hh := hb_here_safe a A T Hs HT).
  cbn [app hb_split] in *. rewrite Hh.
  cbn [lf_safe] in Hs. apply andb_true_iff in Hs as [_ Hs].
  rewrite (IH T Hs HT), pre2_pre2. reflexivity.
Qed.

Lemma hb_split_exact : forall A R,
  lf_safe A = true -> hb_split (A ++ CRLF2 ++ R) = Some (A ++ CRLF2, R).
Proof. intros A R Hs. rewrite hb_split_safe; [reflexivity|exact Hs|reflexivity]. Qed.

Lemma lf_safe_app : forall a b, lf_safe a = true -> lf_safe b = true -> lf_safe (a ++ b) = true.
Proof.
  induction a as [|x a IH]; intros b Ha Hb; [exact Hb|].
  cbn [app lf_safe] in *. apply andb_true_iff in Ha as [H1 H2].
  rewrite (IH b H2 Hb), andb_true_r. destruct (x =? 10); [|reflexivity].
  apply wtn_app. exact H1.
Qed.

Lemma no_lf_safe : forall s, no_lf s = true -> lf_safe s = true.
Proof.
  induction s as [|x s IH]; intro H; [reflexivity|].
  cbn [no_lf forallb] in H. apply andb_true_iff in H as [H1 H2].
  cbn [lf_safe]. apply negb_true_iff in H1. rewrite H1. exact (IH H2).
Qed.

(* The default templates as parts: what BytesFormat._parse_template makes of them *)
Definition L1 : bytes := bs "From: MAILER-DAEMON" ++ CRLF ++ bs "To: ".
Definition L2 : bytes :=
  CRLF ++ bs "Subject: Undelivered Mail Returned to Sender" ++ CRLF ++
  bs "Auto-Submitted: auto-replied" ++ CRLF ++ bs "MIME-Version: 1.0" ++ CRLF ++
  bs "Content-Type: multipart/report; report-type=delivery-status;" ++ CRLF ++
  bs "    boundary=""".
Definition L3a : bytes := bs """" ++ CRLF ++ bs "Content-Transfer-Encoding: 7bit".
Definition L3b : bytes := bs "This is a multi-part message in MIME format." ++ CRLF ++ CRLF ++ bs "--".
Definition L4 : bytes :=
  CRLF ++ bs "Content-Type: text/plain" ++ CRLF ++ CRLF ++ bs "Delivery failed for:" ++ CRLF ++ bs "- ".
Definition L5 : bytes := CRLF ++ CRLF ++ bs "Destination host responded:" ++ CRLF.
Definition L6 : bytes := [32].
Definition L7 : bytes := CRLF ++ CRLF ++ bs "--".
Definition L8 : bytes := CRLF ++ bs "Content-Type: message/delivery-status" ++ CRLF ++ CRLF.
Definition L9 : bytes := CRLF ++ CRLF ++ bs "--".
Definition L10 : bytes := CRLF ++ bs "Content-Type: ".
Definition L11 : bytes := CRLF ++ CRLF.
Definition F1 : bytes := CRLF ++ bs "--".
Definition F2 : bytes := bs "--" ++ CRLF.

Lemma default_hp_eq : default_hp =
  [PLit L1; PKey (bs "sender"); PLit L2; PKey (bs "boundary"); PLit (L3a ++ CRLF2 ++ L3b);
   PKey (bs "boundary"); PLit L4; PKey (bs "recipients"); PLit L5; PKey (bs "code"); PLit L6;
   PKey (bs "message"); PLit L7; PKey (bs "boundary"); PLit L8; PKey (bs "delivery_info");
   PLit L9; PKey (bs "boundary"); PLit L10; PKey (bs "content_type"); PLit L11].
Proof. vm_compute. reflexivity. Qed.

Lemma default_fp_eq : default_fp = [PLit F1; PKey (bs "boundary"); PLit F2].
Proof. vm_compute. reflexivity. Qed.

Lemma fmt_lit : forall b ps t, fmt (PLit b :: ps) t = option_map (app b) (fmt ps t).
Proof. reflexivity. Qed.

Lemma fmt_key : forall k v ps t, lookup k t = Some v ->
  fmt (PKey k :: ps) t = obind v (fun x => option_map (app x) (fmt ps t)).
Proof. intros k v ps t H. cbn [fmt]. rewrite H. destruct v; reflexivity. Qed.

(* fmt on templates of the default shape.  Only the lookups matter: the keys,
   the literals and the table stay variables, so that nothing is computed on
   the strings of the real templates.  The part list is taken apart with
   fmt_lit and fmt_key: unfolding fmt doubles the term at every key. *)
Section Template.
  Variables (t : table) (ks kb kr kc km kd kt : bytes) (vs vc vm : option bytes) (bnd rc di ct : bytes).
  Hypotheses (Hs : lookup ks t = Some vs) (Hb : lookup kb t = Some (Some bnd))
    (Hr : lookup kr t = Some (Some rc)) (Hc : lookup kc t = Some vc) (Hm : lookup km t = Some vm)
    (Hd : lookup kd t = Some (Some di)) (Ht : lookup kt t = Some (Some ct)).
  Variables l1 l2 l3a c2 l3b l4 l5 l6 l7 l8 l9 l10 l11 f1 f2 : bytes.

  Lemma fmt_header :
    fmt [PLit l1; PKey ks; PLit l2; PKey kb; PLit (l3a ++ c2 ++ l3b); PKey kb; PLit l4; PKey kr; PLit l5;
         PKey kc; PLit l6; PKey km; PLit l7; PKey kb; PLit l8; PKey kd; PLit l9; PKey kb; PLit l10;
         PKey kt; PLit l11] t =
    obind vs (fun sb => obind vc (fun cb => obind vm (fun mb =>
      Some (((l1 ++ sb ++ l2 ++ bnd ++ l3a) ++ c2) ++
            l3b ++ bnd ++ l4 ++ rc ++ l5 ++ cb ++ l6 ++ mb ++ l7 ++ bnd ++ l8 ++ di ++ l9 ++ bnd ++ l10 ++ ct ++ l11)))).
  Proof.
    repeat (rewrite fmt_lit || erewrite fmt_key by eassumption).
    destruct vs, vc, vm; try reflexivity. cbn [option_map obind fmt].
    rewrite app_nil_r, <- !app_assoc. reflexivity.
  Qed.

  Lemma fmt_footer : fmt [PLit f1; PKey kb; PLit f2] t = Some (f1 ++ bnd ++ f2).
  Proof.
    rewrite fmt_lit, (fmt_key _ _ _ _ Hb), fmt_lit. cbn [fmt option_map obind].
    rewrite app_nil_r. reflexivity.
  Qed.
End Template.

Definition boundary_of (u : bytes) : bytes := bs "boundary_=" ++ u.
Definition ctype_of (ho : bool) : bytes := if ho then bs "text/rfc822-headers" else bs "message/rfc822".

(* the bounce's own header block *)
Definition top_header (sb bnd : bytes) : bytes := (L1 ++ sb ++ L2 ++ bnd ++ L3a) ++ CRLF2.
(* everything between that header and the embedded original *)
Definition text_part (bnd rcb cb mb di ct : bytes) : bytes :=
  L3b ++ bnd ++ L4 ++ rcb ++ L5 ++ cb ++ L6 ++ mb ++ L7 ++ bnd ++ L8 ++ di ++ L9 ++ bnd ++ L10 ++ ct ++ L11.
Definition closing (bnd : bytes) : bytes := F1 ++ bnd ++ F2.

Theorem render_default_eq : forall e r ho u,
  render default_hp default_fp e r ho u =
  obind (delivery_info e r) (fun di =>
  obind (enc_utf8 (e_sender e)) (fun sb =>
  obind (enc_utf8 (r_code (fr r))) (fun cb =>
  obind (obind (msg_opt r) enc_utf8) (fun mb =>
    Some (top_header sb (boundary_of u) ++
          text_part (boundary_of u) (enc_xmlref (join rcpt_join (e_rcpts e))) cb mb di (ctype_of ho) ++
          e_hdr e ++ (if ho then [] else e_body e) ++ closing (boundary_of u)))))).
Proof.
  intros e r ho u. unfold render. rewrite default_hp_eq, default_fp_eq.
  destruct (delivery_info e r) as [di|]; [|reflexivity]. cbn [obind].
  erewrite fmt_header, fmt_footer by reflexivity.
  destruct (enc_utf8 (e_sender e)) as [sb|]; [|reflexivity].
  destruct (enc_utf8 (r_code (fr r))) as [cb|]; [|reflexivity].
  destruct (obind (msg_opt r) enc_utf8) as [mb|]; [|reflexivity].
  cbn [obind]. rewrite <- app_assoc. reflexivity.
Qed.

Lemma enc_xmlref_app : forall a b, enc_xmlref (a ++ b) = enc_xmlref a ++ enc_xmlref b.
Proof. intros. unfold enc_xmlref. apply flat_map_app. Qed.

Lemma enc_xmlref_join : forall l,
  enc_xmlref (join rcpt_join l) = join rcpt_join (map enc_xmlref l).
Proof.
  induction l as [|x [|y l] IH]; [reflexivity..|].
  change (join rcpt_join (x :: y :: l)) with (x ++ rcpt_join ++ join rcpt_join (y :: l)).
  rewrite !enc_xmlref_app, IH. reflexivity.
Qed.

(* the UTF-8 encoder adds no line feed: every byte of a multi-byte sequence is above 127.  (Reply_lemmas has
   the same fact as enc1_clean; it is proved here from the definition, in the boolean form the template lemmas use.) *)
Lemma utf8_enc1_no_lf : forall c, (c =? 10) = false -> no_lf (utf8_enc1 c) = true.
Proof.
  assert (Hb : forall a x, 10 < a -> negb (a + x =? 10) = true).
  { intros a x Ha. apply negb_true_iff, N.eqb_neq. intro E.
    apply (N.lt_irrefl 10), (N.lt_le_trans _ a); [exact Ha|rewrite <- E; apply N.le_add_r]. }
  intros c H. unfold utf8_enc1, no_lf.
  destruct (c <? 128); [|destruct (c <? 2048); [|destruct (c <? 65536)]]; cbn [forallb];
    rewrite ?H, ?Hb by reflexivity; reflexivity.
Qed.

Lemma utf8_enc_no_lf : forall t, no_lf t = true -> no_lf (utf8_enc t) = true.
Proof.
  induction t as [|c t IH]; intro H; [reflexivity|].
  cbn [no_lf forallb] in H. apply andb_true_iff in H as [H1 H2].
  unfold utf8_enc, no_lf. cbn [flat_map]. rewrite forallb_app. apply andb_true_iff. split.
  - apply utf8_enc1_no_lf, negb_true_iff, H1.
  - apply IH, H2.
Qed.

Lemma enc_utf8_no_lf : forall t b, enc_utf8 t = Some b -> no_lf t = true -> no_lf b = true.
Proof.
  intros t b H Hn. unfold enc_utf8 in H. destruct (forallb valid_cp t); [|discriminate].
  injection H as <-. apply utf8_enc_no_lf, Hn.
Qed.

Lemma lf_safe_top : forall sb u,
  no_lf sb = true -> no_lf u = true -> lf_safe (L1 ++ sb ++ L2 ++ boundary_of u ++ L3a) = true.
Proof.
  intros sb u Hs Hu.
  apply lf_safe_app; [vm_compute; reflexivity|].
  apply lf_safe_app; [apply no_lf_safe; exact Hs|].
  apply lf_safe_app; [vm_compute; reflexivity|].
  apply lf_safe_app; [|vm_compute; reflexivity].
  apply lf_safe_app; [vm_compute; reflexivity|apply no_lf_safe; exact Hu].
Qed.

(* Envelope.parse cuts the payload at or before the first CRLF CRLF, and
   exactly there when no match can start earlier *)
Lemma env_split_bound : forall A R, exists h pre,
  env_split ((A ++ CRLF2) ++ R) = (h, pre ++ R) /\ h ++ pre = A ++ CRLF2 /\
  (lf_safe A = true -> pre = []).
Proof.
  intros A R. unfold env_split. rewrite <- app_assoc.
  destruct (hb_split_bound A R) as [h [pre [Hs Hh]]].
  exists h, pre. rewrite Hs. split; [reflexivity|]. split; [exact Hh|]. intro HA.
  rewrite hb_split_exact in Hs by exact HA.
  injection Hs as <- Hs. apply (app_inv_tail R pre []). symmetry. exact Hs.
Qed.

Definition encoded (e : menv) (r : freply) (sb cb : bytes) (m : text) (mb di : bytes) : Prop :=
  enc_utf8 (e_sender e) = Some sb /\ enc_utf8 (r_code (fr r)) = Some cb /\
  msg_opt r = Some m /\ enc_utf8 m = Some mb /\ delivery_info e r = Some di.

Lemma bounce_new_encoded : forall e r ho u b,
  bounce_new default_hp default_fp e r ho u = Some b -> exists sb cb m mb di, encoded e r sb cb m mb di.
Proof.
  intros e r ho u b H. unfold bounce_new in H. rewrite render_default_eq in H. unfold encoded.
  destruct (delivery_info e r) as [di|]; [|discriminate].
  destruct (enc_utf8 (e_sender e)) as [sb|]; [|discriminate].
  destruct (enc_utf8 (r_code (fr r))) as [cb|]; [|discriminate].
  destruct (msg_opt r) as [m|]; [|discriminate]. cbn [obind] in H.
  destruct (enc_utf8 m) as [mb|] eqn:Emb; [|discriminate].
  exists sb, cb, m, mb, di. repeat split. exact Emb.
Qed.

(* C13_bounce_shape and C13_bounce_built_for_every_reply_text.  With the encodings the
   bounce is built: addressed only to the original sender, from the null sender; its header
   block ++ pre is the rendered top of the template; the message names exactly the
   recipients of the group, quotes code and message, then embeds the original header block
   (and body) unchanged, then the closing boundary.  Without a line break in sender and
   uuid the split is exactly at the blank line. *)
Theorem bounce_new_spec : forall e r ho u sb cb m mb di, encoded e r sb cb m mb di ->
  exists b pre,
    bounce_new default_hp default_fp e r ho u = Some b /\
    b_sender b = [] /\ b_rcpts b = [e_sender e] /\
    b_hdr b ++ pre = top_header sb (boundary_of u) /\
    b_msg b = pre ++
      text_part (boundary_of u) (join rcpt_join (map enc_xmlref (e_rcpts e))) cb mb di (ctype_of ho) ++
      e_hdr e ++ (if ho then [] else e_body e) ++ closing (boundary_of u) /\
    (no_lf (e_sender e) = true -> no_lf u = true -> pre = []).
Proof.
  intros e r ho u sb cb m mb di (Es & Ec & Em & Emb & Ed). unfold bounce_new.
  rewrite render_default_eq, Ed, Es, Ec, Em. cbn [obind]. rewrite Emb. cbn [obind].
  unfold top_header. edestruct env_split_bound as [h [pre [-> [Hh Hp]]]].
  eexists _, pre. split; [reflexivity|]. cbn [b_sender b_rcpts b_hdr b_msg]. rewrite <- enc_xmlref_join.
  do 2 (split; [reflexivity|]). split; [exact Hh|]. split; [reflexivity|].
  intros Hn Hu. apply Hp, lf_safe_top; [exact (enc_utf8_no_lf _ _ Es Hn)|exact Hu].
Qed.

Definition unicode_ok (t : text) : Prop := forallb valid_cp t = true.
Definition ascii_ok (t : text) : Prop := forallb (fun c => c <? 128) t = true.

Lemma enc_utf8_ok : forall t, unicode_ok t -> enc_utf8 t = Some (utf8_enc t).
Proof. intros t H. unfold enc_utf8. rewrite H. reflexivity. Qed.

Lemma ascii_unicode : forall t, ascii_ok t -> unicode_ok t.
Proof.
  unfold ascii_ok, unicode_ok. intros t H. rewrite forallb_forall in *. intros c Hc.
  apply H, N.ltb_lt in Hc. unfold valid_cp, is_surrogate.
  rewrite (proj2 (N.ltb_lt c 1114112)), (proj2 (N.leb_gt 55296 c))
    by (apply (N.lt_trans _ 128); [exact Hc|reflexivity]). reflexivity.
Qed.

(* what has to be text for Bounce to be able to render it *)
Definition env_texts_ok (e : menv) : Prop :=
  unicode_ok (e_sender e) /\
  unicode_ok (or_unknown (cl_name (e_client e))) /\
  unicode_ok (or_unknown (cl_ip (e_client e))).
Definition reply_texts_ok (r : freply) : Prop :=
  fr_none r = false /\ ascii_ok (r_code (fr r)) /\ unicode_ok (get_message (fr r)) /\
  match fr_addr r with Some h => unicode_ok h | None => True end.

Lemma encoded_total : forall e r, env_texts_ok e -> reply_texts_ok r ->
  exists di, encoded e r (utf8_enc (e_sender e)) (utf8_enc (r_code (fr r))) (get_message (fr r))
                     (utf8_enc (get_message (fr r))) di.
Proof.
  intros e r [Hs [Hn Hi]] [Hnone [Hc [Hm Ha]]].
  assert (Hd : exists di, delivery_info e r = Some di).
  { unfold delivery_info, reply_bytes, msg_opt, enc_ascii.
    rewrite Hnone, Hc, (enc_utf8_ok _ Hn), (enc_utf8_ok _ Hi). cbn [obind]. rewrite (enc_utf8_ok _ Hm).
    destruct (cl_nonempty (e_client e)); destruct (fr_addr r) as [[|h0 h]|];
      rewrite ?(enc_utf8_ok _ Ha); eexists; reflexivity. }
  destruct Hd as [di Hd]. exists di. unfold encoded, msg_opt. rewrite Hnone.
  auto 6 using enc_utf8_ok, ascii_unicode.
Qed.

(* D24: a reply whose message is None never yields a bounce, whatever the
   templates: Reply.__bytes__ raises while the delivery information is built *)
Lemma delivery_info_none : forall e r, msg_opt r = None -> delivery_info e r = None.
Proof.
  intros e r H. unfold delivery_info, reply_bytes. rewrite H.
  destruct (if cl_nonempty (e_client e) then _ else _); [|reflexivity].
  destruct (match fr_addr r with Some (h0 :: h) => _ | _ => _ end); [|reflexivity].
  destruct (enc_ascii (r_code (fr r))); reflexivity.
Qed.

Theorem none_message_no_bounce : forall hp fp e r ho u,
  fr_none r = true -> bounce_new hp fp e r ho u = None.
Proof.
  intros hp fp e r ho u H. unfold bounce_new, render.
  rewrite delivery_info_none; [reflexivity|]. unfold msg_opt. rewrite H. reflexivity.
Qed.

Section Dispatch.
  Variable udigit : N -> bool.
  Variable uspace : N -> bool.
  Notation dispatch := (dispatch udigit uspace).
  Notation add_suffix := (add_suffix udigit uspace).
  Notation exhaust := (exhaust udigit uspace).
  Notation retry_later := (retry_later udigit uspace).
  Notation partial := (partial udigit uspace).

  (* the (envelope, reply) pairs handed to _bounce, in spawn order *)
  Definition bounces_of (acts : list action) : list (menv * freply) :=
    flat_map (fun a => match a with ABounce e r => [(e, r)] | _ => [] end) acts.

  Lemma bounces_of_app : forall a b, bounces_of (a ++ b) = bounces_of a ++ bounces_of b.
  Proof. intros. unfold bounces_of. apply flat_map_app. Qed.

  Lemma bounces_perm_fail : forall w e r,
    bounces_of (perm_fail w e r) = if is_nil (e_sender e) then [] else [(e, r)].
  Proof.
    intros w e r. unfold perm_fail. rewrite bounces_of_app.
    destruct w; destruct (is_nil (e_sender e)); reflexivity.
  Qed.

  (* the groups whose reply could be extended with the retry marker, up to the
     first reply whose message is None (there the loop dies, D24) *)
  Fixpoint suffixed (gs : list (freply * menv)) : list (menv * freply) :=
    match gs with
    | [] => []
    | (r, ge) :: gs' =>
        match add_suffix r with
        | None => []
        | Some r' => (ge, r') :: suffixed gs'
        end
    end.

  Definition swap_g (g : freply * menv) : menv * freply := (snd g, fst g).

  Lemma is_nil_false : forall (A : Type) (l : list A), l <> [] -> is_nil l = false.
  Proof. intros A [|x l] H; [contradiction|reflexivity]. Qed.

  Lemma bounces_exhaust : forall s (gs : list (freply * menv)), Forall (fun g => e_sender (snd g) = s) gs ->
    bounces_of (exhaust gs) = if is_nil s then [] else suffixed gs.
  Proof.
    intros s gs H. induction H as [|[r ge] gs Hs _ IH]; cbn [exhaust suffixed].
    - destruct (is_nil s); reflexivity.
    - destruct (add_suffix r) as [r'|]; [|destruct (is_nil s); reflexivity]. cbn [snd] in Hs.
      rewrite bounces_of_app, bounces_perm_fail, IH, Hs. destruct (is_nil s); reflexivity.
  Qed.

  Lemma bounces_retry : forall s (gs : list (freply * menv)) bo d,
    Forall (fun g => e_sender (snd g) = s) gs ->
    bounces_of (fst (retry_later gs bo d)) =
    if is_nil s then [] else match bo with None => suffixed gs | Some _ => [] end.
  Proof.
    intros s gs [w|] d H; [destruct d, (is_nil s); reflexivity|]. exact (bounces_exhaust s gs H).
  Qed.

  Lemma bounces_permgroups : forall s (gs : list (freply * menv)), Forall (fun g => e_sender (snd g) = s) gs ->
    bounces_of (flat_map (fun g => perm_fail false (snd g) (fst g)) gs) =
    if is_nil s then [] else map swap_g gs.
  Proof.
    intros s gs H. induction H as [|g gs Hs _ IH]; cbn [flat_map map].
    - destruct (is_nil s); reflexivity.
    - rewrite bounces_of_app, bounces_perm_fail, IH, Hs. destruct (is_nil s); reflexivity.
  Qed.

  Lemma group_envs_sender : forall e fails,
    Forall (fun g => e_sender (snd g) = e_sender e) (group_envs e fails).
  Proof. intros e fails. apply Forall_map, Forall_forall. reflexivity. Qed.

  (* specification: one bounce per group of permanent failures, and - when
     backoff gave up - one per group of transient failures, marked *)
  Definition spec_partial (e : menv) (items : list (text * rres)) (bo : option N) : list (menv * freply) :=
    match classify (e_rcpts e) items [] [] [] with
    | None => []
    | Some (dl, tf, pf) =>
        map swap_g (group_envs e pf) ++
        match tf, bo with
        | _ :: _, None => suffixed (group_envs e tf)
        | _, _ => []
        end
    end.

  Definition spec_bounces (e : menv) (o : outcome) (bo : option N) : list (menv * freply) :=
    match o with
    | OOk => []
    | OPerm r => [(e, r)]
    | OTemp r => match bo with None => suffixed [(r, e)] | Some _ => [] end
    | OOther m => match bo with None => suffixed [(unhandled_reply udigit uspace m, e)] | Some _ => [] end
    | OMap items => spec_partial e items bo
    | OSeq rs => spec_partial e (zip_dict (e_rcpts e) rs []) bo
    end.

  Lemma bounces_partial : forall e items bo,
    bounces_of (partial e items bo) = if is_nil (e_sender e) then [] else spec_partial e items bo.
  Proof.
    intros e items bo. unfold Bounce.partial, spec_partial.
    destruct (classify (e_rcpts e) items [] [] []) as [[[dl tf] pf]|];
      [|destruct (is_nil (e_sender e)); reflexivity].
    destruct tf as [|t tf]; rewrite bounces_of_app, (bounces_permgroups _ _ (group_envs_sender e pf)).
    - destruct (is_nil (e_sender e)); cbn; rewrite ?app_nil_r; reflexivity.
    - rewrite (bounces_retry _ _ _ _ (group_envs_sender e (t :: tf))).
      destruct (is_nil (e_sender e)); reflexivity.
  Qed.

  (* C13_dispatch_bounces and C13_no_sender_no_bounce (the null-sender guard) *)
  Theorem bounces_dispatch : forall e o bo,
    bounces_of (dispatch e o bo) = if is_nil (e_sender e) then [] else spec_bounces e o bo.
  Proof.
    intros e o bo. destruct o; cbn [Bounce.dispatch spec_bounces].
    - destruct (is_nil (e_sender e)); reflexivity.
    - apply bounces_perm_fail.
    - apply bounces_retry. repeat constructor.
    - apply bounces_retry. repeat constructor.
    - apply bounces_partial.
    - apply bounces_partial.
  Qed.

  Lemma spec_bounces_sender : forall e o bo x, In x (spec_bounces e o bo) -> e_sender (fst x) = e_sender e.
  Proof.
    assert (Hsuf : forall s (gs : list (freply * menv)), Forall (fun g => e_sender (snd g) = s) gs -> Forall (fun x => e_sender (fst x) = s) (suffixed gs)).
    { intros s gs H. induction H as [|[r ge] gs Hs _ IH]; cbn [suffixed]; [constructor|].
      destruct (add_suffix r); constructor; assumption. }
    assert (Hpart : forall e items bo, Forall (fun x => e_sender (fst x) = e_sender e) (spec_partial e items bo)).
    { intros e items bo. unfold spec_partial.
      destruct (classify (e_rcpts e) items [] [] []) as [[[dl tf] pf]|]; [|constructor].
      apply Forall_app. split.
      - apply Forall_map. exact (group_envs_sender e pf).
      - destruct tf; [constructor|]. destruct bo; [constructor|]. apply Hsuf, group_envs_sender. }
    intros e o bo. apply Forall_forall. destruct o; cbn [spec_bounces]; try apply Hpart;
      try (destruct bo; [constructor|]; apply Hsuf); repeat constructor.
  Qed.
End Dispatch.

Section Runs.
  Variable udigit : N -> bool.
  Variable uspace : N -> bool.
  Notation dispatch := (dispatch udigit uspace).
  Notation step := (step udigit uspace).
  Notation run_events := (run_events udigit uspace).

  Definition orig_msg (e : menv) : msg := mkMsg e None false.

  (* what a bounce factory may be: whatever it builds has the null sender
     (Bounce.sender = '' unless an application overrides the class attribute) *)
  Definition factory_null (f : factory) : Prop :=
    forall e r u b, f e r u = FSome b -> b_sender b = [].

  Lemma default_factory_null : forall ho, factory_null (default_factory ho).
  Proof.
    intros ho e r u b H. unfold default_factory, bounce_new in H.
    destruct (render default_hp default_fp e r ho u) as [p|]; [|discriminate].
    destruct (env_split p) as [h m]. injection H as <-. reflexivity.
  Qed.

  Definition bounce_of_original (origs : list menv) (m : msg) : Prop :=
    e_sender (m_env m) = [] /\
    exists p po, m_parent m = Some p /\ nth_error origs (N.to_nat p) = Some po /\ e_sender po <> [].

  (* the envelopes for which queue.enqueue returned an id *)
  Definition enq_ok (tr : list tact) : list msg :=
    flat_map (fun t => match t with TEnqueue q e p true => [mkMsg e p q] | _ => [] end) tr.

  Lemma enq_ok_app : forall a b, enq_ok (a ++ b) = enq_ok a ++ enq_ok b.
  Proof. intros. unfold enq_ok. apply flat_map_app. Qed.

  Variable c : cfg.
  Variable origs : list menv.

  Definition inv_shape (st : state) : Prop :=
    exists bs, msgs st = map orig_msg origs ++ bs /\ Forall (bounce_of_original origs) bs.

  Definition inv_enq (st : state) : Prop :=
    msgs st = enq_ok (trace st) /\
    (forall q e p ok, In (TEnqueue q e (Some p) ok) (trace st) -> q = c_sepq c).

  (* run_bounces keeps whatever is kept by a trace entry that is no enqueue and
     by the enqueue of what the factory builds for one of the bounces *)
  Lemma run_bounces_inv : forall (P : state -> Prop) i acts,
    (forall st t, (forall q e p ok, t <> TEnqueue q e p ok) -> P st -> P (mkSt (msgs st) (trace st ++ [t]))) ->
    (forall st e r u b ok, In (ABounce e r) acts -> c_factory c e r u = FSome b -> P st ->
                           P (enqueue st (c_sepq c) (env_of_bounce b) (Some i) ok)) ->
    forall st chs, P st -> P (run_bounces c st i acts chs).
  Proof.
    intros P i acts Hn. induction acts as [|a acts IH]; intros He st chs Hst; [exact Hst|].
    assert (IH' := IH (fun st e r u b ok H => He st e r u b ok (or_intror H))).
    destruct a; cbn [run_bounces]; try (apply IH'; exact Hst).
    destruct (c_factory c e r (fst (hd default_choice chs))) as [| |b] eqn:Ef; apply IH'.
    - apply Hn; [discriminate|exact Hst].
    - apply Hn; [discriminate|exact Hst].
    - exact (He _ _ _ _ _ _ (or_introl eq_refl) Ef Hst).
  Qed.

  Lemma inv_enq_app : forall st ms ts,
    inv_enq st -> ms = msgs st ++ enq_ok ts ->
    (forall q e p ok, In (TEnqueue q e (Some p) ok) ts -> q = c_sepq c) ->
    inv_enq (mkSt ms (trace st ++ ts)).
  Proof.
    intros st ms ts [H1 H2] -> Hq. split; cbn [msgs trace].
    - rewrite enq_ok_app, <- H1. reflexivity.
    - intros q e p ok Hin. apply in_app_or in Hin as [Hin|Hin]; eauto.
  Qed.

  Lemma enqueue_enq : forall st q e p ok,
    inv_enq st -> (forall p', p = Some p' -> q = c_sepq c) -> inv_enq (enqueue st q e p ok).
  Proof.
    intros st q e p ok Hst Hq. unfold enqueue.
    destruct ok; (apply inv_enq_app; [exact Hst|cbn; rewrite ?app_nil_r; reflexivity|]).
    - intros q' e' p' ok' [[= -> _ Hp _]|[[=]|[]]]. eauto.
    - intros q' e' p' ok' [[= -> _ Hp _]|[]]. eauto.
  Qed.

  Lemma note_enq : forall st t,
    (forall q e p ok, t <> TEnqueue q e p ok) -> inv_enq st -> inv_enq (mkSt (msgs st) (trace st ++ [t])).
  Proof.
    intros st t Ht Hst. apply inv_enq_app; [exact Hst| |].
    - destruct t; try (symmetry; apply app_nil_r). destruct (Ht _ _ _ _ eq_refl).
    - intros q e p ok [Hin|[]]. destruct (Ht _ _ _ _ Hin).
  Qed.

  Lemma step_enq : forall st ev, inv_enq st -> inv_enq (step c st ev).
  Proof.
    intros st ev Hst. unfold Bounce.step.
    destruct (nth_error (msgs st) (N.to_nat (ev_msg ev))) as [m|]; [|exact Hst].
    apply run_bounces_inv; [exact note_enq| |apply note_enq; [discriminate|exact Hst]].
    intros st' e r u b ok _ _ Hst'. apply enqueue_enq; [exact Hst'|reflexivity].
  Qed.

  Lemma init_msgs : forall es st,
    msgs (fold_left (fun st e => enqueue st false e None true) es st) = msgs st ++ map orig_msg es.
  Proof.
    induction es as [|e es IH]; intro st; cbn [fold_left map]; [symmetry; apply app_nil_r|].
    rewrite IH. unfold enqueue. cbn [msgs]. rewrite <- app_assoc. reflexivity.
  Qed.

  Lemma init_enq : inv_enq (init origs).
  Proof.
    apply (fold_left_inv _ inv_enq).
    - intros st e Hst. apply enqueue_enq; [exact Hst|discriminate].
    - split; [reflexivity|intros q e p ok []].
  Qed.

  (* C13_via_enqueue *)
  Theorem via_enqueue : forall evs, inv_enq (run_events c origs evs).
  Proof. intro evs. apply (fold_left_inv _ inv_enq); [exact step_enq|exact init_enq]. Qed.

  Hypothesis Hfac : factory_null (c_factory c).

  Lemma shape_note : forall st tr, inv_shape st -> inv_shape (mkSt (msgs st) tr).
  Proof. intros st tr H. exact H. Qed.

  Lemma shape_enqueue : forall st q b i ok po,
    inv_shape st -> b_sender b = [] ->
    nth_error origs (N.to_nat i) = Some po -> e_sender po <> [] ->
    inv_shape (enqueue st q (env_of_bounce b) (Some i) ok).
  Proof.
    intros st q b i ok po [bs [H1 H2]] Hb Hpo Hs. unfold enqueue. destruct ok; cbn [msgs].
    - exists (bs ++ [mkMsg (env_of_bounce b) (Some i) q]). split.
      + rewrite H1, <- app_assoc. reflexivity.
      + apply Forall_app. split; [exact H2|]. constructor; [|constructor].
        split; [exact Hb|]. exists i, po. auto.
    - exists bs. split; assumption.
  Qed.

  Lemma nth_error_orig : forall i m bs,
    nth_error (map orig_msg origs ++ bs) i = Some m ->
    Forall (bounce_of_original origs) bs ->
    e_sender (m_env m) <> [] ->
    exists po, nth_error origs i = Some po /\ m = orig_msg po.
  Proof.
    intros i m bs H Hbs Hs.
    destruct (Nat.lt_ge_cases i (List.length (map orig_msg origs))) as [E|E].
    - rewrite nth_error_app1, nth_error_map in H by exact E.
      destruct (nth_error origs i) as [po|]; [|discriminate].
      injection H as <-. exists po. split; reflexivity.
    - rewrite nth_error_app2 in H by exact E. apply nth_error_In in H.
      rewrite Forall_forall in Hbs. destruct (Hbs m H) as [Hnull _]. contradiction.
  Qed.

  Lemma step_shape : forall st ev, inv_shape st -> inv_shape (step c st ev).
  Proof.
    intros st ev Hst. unfold Bounce.step.
    destruct (nth_error (msgs st) (N.to_nat (ev_msg ev))) as [m|] eqn:En; [|exact Hst].
    apply run_bounces_inv; [intros; apply shape_note; assumption| |apply shape_note, Hst].
    intros st' e r u b ok Hin Hf Hst'.
    (* a bounce is spawned, so the message has a sender, so it is an original *)
    assert (Hs : e_sender (m_env m) <> []).
    { intro Hs. assert (Hb : In (e, r) (bounces_of (dispatch (with_rcpts (m_env m) (ev_rcpts ev)) (ev_out ev) (ev_bo ev)))).
      { apply in_flat_map. exists (ABounce e r). split; [exact Hin|left; reflexivity]. }
      rewrite bounces_dispatch in Hb. cbn [with_rcpts e_sender] in Hb. rewrite Hs in Hb. exact Hb. }
    destruct Hst as [bs [H1 H2]]. rewrite H1 in En.
    destruct (nth_error_orig _ _ _ En H2 Hs) as [po [Hpo ->]].
    exact (shape_enqueue _ _ _ _ _ _ Hst' (Hfac _ _ _ _ Hf) Hpo Hs).
  Qed.

  (* C13_no_loop *)
  Theorem no_loop : forall evs, inv_shape (run_events c origs evs).
  Proof.
    intro evs. apply (fold_left_inv _ inv_shape); [exact step_shape|].
    exists []. split; [|constructor]. rewrite app_nil_r. apply (init_msgs origs (mkSt [] [])).
  Qed.

  Corollary no_loop_count : forall evs,
    exists bs, List.length (msgs (run_events c origs evs)) = (List.length origs + List.length bs)%nat /\
               Forall (bounce_of_original origs) bs.
  Proof.
    intros evs. destruct (no_loop evs) as [bs [H1 H2]]. exists bs. split; [|exact H2].
    rewrite H1, app_length, map_length. reflexivity.
  Qed.
End Runs.

(* The hypotheses of the theorems are satisfiable. *)
Module Ex.
  Definition cl0 : client := mkClient true (Some (bs "there")) (Some (bs "192.0.2.1")) None.
  Definition e0 : menv :=
    mkEnv (bs "sender@example.com") [bs "a@example.com"; [233; 64; 98]; bs "c@example.com"]
          (bs "Subject: x" ++ CRLF ++ CRLF) ([255; 0; 10] ++ bs "8-bit body" ++ CRLF) cl0.
  Definition r550 : freply := mkF (new_reply is_digit is_ws (bs "550") (bs "5.1.1 No such user")) false (Some (bs "mx.example.com")).
  Definition r450 : freply := mkF (new_reply is_digit is_ws (bs "450") (bs "Mailbox full")) false None.
  Definition u0 : bytes := bs "0123456789abcdef0123456789abcdef".

  (* C13_bounce_shape: a bounce is built, and its message really starts at the blank line *)
  Example shape_hyp : exists b, bounce_new default_hp default_fp e0 r550 false u0 = Some b /\
                                no_lf (e_sender e0) = true /\ no_lf u0 = true.
  Proof. eexists. split; [vm_compute; reflexivity|split; reflexivity]. Qed.

  (* C13_dispatch_bounces: a mapping with two permanent replies and one transient, retries exhausted:
     three bounces (sender non-empty) *)
  Definition items0 : list (text * rres) :=
    [(bs "a@example.com", RRPerm r550); ([233; 64; 98], RRTemp r450); (bs "c@example.com", RRPerm r550)].
  Example dispatch_hyp :
    e_sender e0 <> [] /\
    List.length (bounces_of (dispatch is_digit is_ws e0 (OMap items0) None)) = 2%nat /\
    map (fun x => e_rcpts (fst x)) (bounces_of (dispatch is_digit is_ws e0 (OMap items0) None))
      = [[bs "a@example.com"; bs "c@example.com"]; [[233; 64; 98]]].
  Proof. split; [discriminate|]. split; vm_compute; reflexivity. Qed.

  (* C13_no_loop / C13_via_enqueue: a run in which the original fails, is bounced, and the bounce fails too *)
  Definition c0 : cfg := mkCfg (default_factory false) true.
  Definition evs0 : list event :=
    [mkEv 0 (e_rcpts e0) (OPerm r550) None [(u0, true)];
     mkEv 1 [bs "sender@example.com"] (OPerm r550) None []].
  Example run_hyp :
    factory_null (c_factory c0) /\
    List.length (msgs (run_events is_digit is_ws c0 [e0] evs0)) = 2%nat.
  Proof. split; [apply default_factory_null|vm_compute; reflexivity]. Qed.

  Example d24_hyp : fr_none (mkF (new_reply is_digit is_ws (bs "550") []) true None) = true.
  Proof. reflexivity. Qed.
End Ex.

Module Ex2.
  Import Ex.
  (* the hypotheses of C13_groups_invariant_under_mapping_order hold for a mapping and its reversal, and the
     two groupings really differ (other order of groups and of recipients) *)
  Definition rcpts0 := e_rcpts e0.
  Definition items1 : list (text * rres) :=
    [(bs "a@example.com", RRTemp r450); ([233; 64; 98], RRTemp r550); (bs "c@example.com", RRTemp r450)].
  Example mapping_order_hyp :
    Permutation items1 (rev items1) /\
    (exists dl tf pf, classify rcpts0 items1 [] [] [] = Some (dl, tf, pf) /\
                      map snd (split_by_reply tf) = [[bs "a@example.com"; bs "c@example.com"]; [[233; 64; 98]]]) /\
    (exists dl tf pf, classify rcpts0 (rev items1) [] [] [] = Some (dl, tf, pf) /\
                      map snd (split_by_reply tf) = [[bs "c@example.com"; bs "a@example.com"]; [[233; 64; 98]]]).
  Proof.
    split; [apply Permutation_rev|].
    split; eexists; eexists; eexists; split; vm_compute; reflexivity.
  Qed.
End Ex2.

Module Ex3.
  Import Ex.
  (* the hypotheses of C13_bounce_built_for_every_reply_text hold for a reply text with 2-, 3- and 4-byte characters,
     an SMTPUTF8 sender and a non-ASCII client name *)
  Definition e1 : menv :=
    mkEnv [109; 252; 108; 108; 101; 114; 64; 20363; 12360; 46; 106; 112] [bs "a@example.com"]
          (bs "Subject: x" ++ CRLF ++ CRLF) [255; 254; 10]
          (mkClient true (Some [104; 244; 116; 101]) (Some (bs "192.0.2.1")) None).
  Definition r1 : freply :=
    mkF (new_reply is_digit is_ws (bs "550") (bs "5.1.1 " ++ [233; 8364; 26085; 128554])) false
        (Some (bs "2001:db8::1")).
  Example built_hyp : env_texts_ok e1 /\ reply_texts_ok r1.
  Proof. repeat split; vm_compute; reflexivity. Qed.
End Ex3.
