(* Proofs about the re-use of one DataSender object (property C05). *)
From Coq Require Import List NArith.
From SV Require Import lib.Bytes model.Data model.DataObj proof.Data_lemmas.
Import ListNotations.

Lemma sender_send_new parts : sender_send (sender_new parts) = (send parts, sender_new parts).
Proof. reflexivity. Qed.

Lemma emissions_repeat parts n : emissions (sender_new parts) n = repeat (send parts) n.
Proof.
  induction n as [|n IH]; [reflexivity|].
  cbn [emissions repeat]. rewrite sender_send_new, IH. reflexivity.
Qed.

Lemma emission_is_send parts n w : In w (emissions (sender_new parts) n) -> w = send parts.
Proof. rewrite emissions_repeat. apply repeat_spec. Qed.

Example ex_emissions :
  emissions (sender_new [[46; 97; 10]; [46]]) 3 =
  [[46; 46; 97; 10; 46; 46; 13; 10; 46; 13; 10]; [46; 46; 97; 10; 46; 46; 13; 10; 46; 13; 10]; [46; 46; 97; 10; 46; 46; 13; 10; 46; 13; 10]].
Proof. reflexivity. Qed.
