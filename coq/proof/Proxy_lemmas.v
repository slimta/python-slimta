(* Lemmas about model/Proxy.v for C18 (PROXY protocol headers are parsed
   exactly and never over-read).  Every reader is described twice: [*_exact] on
   a stream that starts with a well-formed header (the header is returned, the
   payload is left), and [*_took] on any stream (a bounded prefix is consumed,
   the result is one a handler deals with).  After that: the glibc IPv6 text
   conversion of the model satisfies what the exactness lemmas assume; the
   readers written as coroutines compute the same; handle() calls the wrapped
   handler once. *)
From Coq Require Import List NArith Bool Arith Lia.
From SV Require Import lib.Bytes model.Proxy proof.List_lemmas proof.Arith_lemmas proof.Bytes_lemmas.
Import ListNotations.
Open Scope N_scope.
Local Arguments firstn : simpl never.
Local Arguments skipn : simpl never.

Lemma beqb_refl' : forall a, beqb a a = true.
Proof. exact beqb_refl. Qed.

Lemma recv_into_spec : forall data sched n,
  exists m, (m <= n)%nat /\ ((1 <= n)%nat -> (1 <= m)%nat) /\
    recv_into (mk_sock data sched) n = (firstn m data, mk_sock (skipn m data) (tl sched)).
Proof.
  intros data [|k sched] n; unfold recv_into; cbn [s_sched s_data].
  - exists n. repeat split; lia.
  - exists (Nat.min n (Nat.max 1 (N.to_nat k))). repeat split; lia.
Qed.

Lemma recv_into_app : forall rest payload sched n, (1 <= n <= length rest)%nat ->
  exists c chunk rest', rest = (c :: chunk) ++ rest' /\ (length (c :: chunk) <= n)%nat /\
    recv_into (mk_sock (rest ++ payload) sched) n = (c :: chunk, mk_sock (rest' ++ payload) (tl sched)).
Proof.
  intros rest payload sched n Hn.
  destruct (recv_into_spec (rest ++ payload) sched n) as (m & Hm1 & Hm2 & ->).
  rewrite firstn_app, skipn_app. replace (m - length rest)%nat with 0%nat by lia. rewrite app_nil_r.
  assert (Hc : length (firstn m rest) = m) by (apply firstn_length_le; lia).
  destruct (firstn m rest) as [|c chunk] eqn:Ec; [cbn [length] in Hc; lia|].
  exists c, chunk, (skipn m rest). rewrite <- Ec at 1. rewrite firstn_skipn. repeat split. lia.
Qed.

Definition took (s s' : sock) (n : nat) : Prop :=
  exists pre, s_data s = pre ++ s_data s' /\ (length pre <= n)%nat.

Lemma took_le {s s' n m} : took s s' n -> (n <= m)%nat -> took s s' m.
Proof. intros (pre & E & L) H. exists pre. split; [exact E|lia]. Qed.

Lemma took_refl : forall s n, took s s n.
Proof. intros s n. exists []. split; [reflexivity|apply Nat.le_0_l]. Qed.

Lemma took_trans {s s1 s2 n1 n2 n} :
  took s s1 n1 -> took s1 s2 n2 -> (n1 + n2 <= n)%nat -> took s s2 n.
Proof.
  intros (p1 & E1 & L1) (p2 & E2 & L2) H. exists (p1 ++ p2).
  rewrite E1, E2, app_assoc, app_length. split; [reflexivity|lia].
Qed.

Lemma recv_into_took : forall s n chunk s', recv_into s n = (chunk, s') ->
  s_data s = chunk ++ s_data s' /\ (length chunk <= n)%nat.
Proof.
  intros [data sched] n chunk s' H.
  destruct (recv_into_spec data sched n) as (m & Hm & _ & E). rewrite E in H. inversion H; subst.
  cbn [s_data]. rewrite firstn_skipn, firstn_length. split; [reflexivity|lia].
Qed.

Lemma read_fill_done : forall fuel target read s, (target <= length read)%nat ->
  read_fill fuel target read s = (Ok read, s).
Proof.
  intros [|f] target read s H; cbn [read_fill];
    rewrite (proj2 (Nat.leb_le _ _) H); reflexivity.
Qed.

Lemma read_fill_exact : forall fuel n hdr initial rest payload sched,
  initial ++ rest = hdr -> (length initial <= n <= length hdr)%nat -> (n - length initial <= fuel)%nat ->
  exists sched',
    read_fill fuel n initial (mk_sock (rest ++ payload) sched)
    = (Ok (firstn n hdr), mk_sock (skipn n hdr ++ payload) sched').
Proof.
  induction fuel as [|f IH]; intros n hdr initial rest payload sched Hir Hn Hf;
    assert (Hl : (length initial + length rest = length hdr)%nat) by (rewrite <- Hir, app_length; reflexivity);
    (destruct (le_lt_dec n (length initial)) as [Hle|Hgt];
     [rewrite read_fill_done by exact Hle; rewrite <- Hir, firstn_exact, skipn_exact by lia;
      exists sched; reflexivity|]); [lia|].
  cbn [read_fill]. rewrite (proj2 (Nat.leb_gt _ _) Hgt).
  destruct (recv_into_app rest payload sched (n - length initial)) as (c & chunk & rest' & -> & Hc & ->); [lia|].
  rewrite app_assoc in Hir. rewrite app_length in Hl.
  apply (IH n hdr _ _ _ _ Hir); rewrite app_length; cbn [length] in *; lia.
Qed.

Lemma read_fill_took : forall fuel target read s,
  (length read <= target)%nat -> (target - length read <= fuel)%nat ->
  took s (snd (read_fill fuel target read s)) (target - length read) /\
  match fst (read_fill fuel target read s) with
  | Ok x => x ++ s_data (snd (read_fill fuel target read s)) = read ++ s_data s /\ length x = target
  | Raise e => e = EAssert W_EOF
  | OutOfFuel => False
  end.
Proof.
  induction fuel as [|f IH]; intros target read s Hlen Hf;
    (destruct (le_lt_dec target (length read)) as [Hle|Hgt];
     [rewrite read_fill_done by exact Hle; split; [apply took_refl|split; [reflexivity|lia]]|]); [lia|].
  cbn [read_fill]. rewrite (proj2 (Nat.leb_gt _ _) Hgt).
  destruct (recv_into s (target - length read)) as [chunk s1] eqn:E.
  apply recv_into_took in E as [Ed El].
  assert (T1 : took s s1 (length chunk)) by (exists chunk; auto).
  destruct chunk as [|c chunk]; [split; [exact (took_le T1 El)|reflexivity]|].
  destruct (IH target (read ++ c :: chunk) s1) as [T B]; [rewrite app_length; cbn [length] in *; lia..|].
  rewrite app_length in T. split; [apply (took_trans T1 T); lia|].
  rewrite Ed, app_assoc. exact B.
Qed.

Lemma ends_crlf_snoc : forall l, ends_crlf (l ++ [13; 10]) = true.
Proof. intros. unfold ends_crlf. rewrite rev_app_distr. reflexivity. Qed.

Lemma ends_cr_snoc : forall l, ends_cr (l ++ [13]) = true.
Proof. intros. unfold ends_cr. rewrite rev_app_distr. reflexivity. Qed.

Lemma ends_crlf_inv : forall l, ends_crlf l = true -> exists l0, l = l0 ++ [13; 10].
Proof.
  intros l H. unfold ends_crlf in H.
  (* the match on the numerals 10 and 13 is a match on their four binary digits *)
  destruct (rev l) as [|[|p] t] eqn:E; try discriminate. do 4 (destruct p as [p|p|]; try discriminate).
  destruct t as [|[|q] t]; try discriminate. do 4 (destruct q as [q|q|]; try discriminate).
  exists (rev t). rewrite <- (rev_involutive l), E. cbn [rev]. rewrite <- app_assoc. reflexivity.
Qed.

Lemma has_crlf_mid : forall a b, has_crlf (a ++ 13 :: 10 :: b) = true.
Proof.
  induction a as [|x a IH]; intros b; [reflexivity|].
  cbn [has_crlf app]. rewrite IH. apply orb_true_r.
Qed.

Lemma has_crlf_nocr_app : forall a b, forallb (fun x => negb (x =? 13)) a = true ->
  has_crlf (a ++ b) = has_crlf b.
Proof.
  induction a as [|x a IH]; intros b H; [reflexivity|].
  cbn [forallb] in H. apply andb_true_iff in H. destruct H as [Hx Ha].
  apply negb_true_iff in Hx. cbn [app has_crlf]. rewrite (IH b Ha), Hx. destruct (a ++ b); reflexivity.
Qed.

Lemma has_crlf_snoc_cr : forall l, has_crlf (l ++ [13]) = has_crlf l.
Proof.
  induction l as [|x l IH]; [reflexivity|].
  cbn [app has_crlf]. rewrite IH. destruct l as [|y l]; [|reflexivity].
  cbn [app]. rewrite andb_false_r. reflexivity.
Qed.

(* A complete v1 line as the reader needs it: its only CRLF is the final one. *)
Definition line_ok (line : bytes) : Prop :=
  exists body, line = body ++ [13; 10] /\ has_crlf (body ++ [13]) = false.

Lemma line_ok_prefix : forall line read rest,
  line_ok line -> read ++ rest = line -> rest <> [] -> ends_crlf read = false.
Proof.
  intros line read rest (body & -> & Hb) Hrr Hne.
  destruct (exists_last Hne) as (rest0 & x & ->).
  change [13; 10] with ([13] ++ [10]) in Hrr. rewrite !app_assoc in Hrr.
  apply app_inj_tail in Hrr. destruct Hrr as [Hrr _].
  destruct (ends_crlf read) eqn:E; [|reflexivity]. apply ends_crlf_inv in E as [l0 ->].
  rewrite <- Hrr, <- app_assoc in Hb. cbn [app] in Hb. rewrite has_crlf_mid in Hb. discriminate.
Qed.

Lemma line_ok_last : forall line read x,
  line_ok line -> read ++ [x] = line -> ends_cr read = true.
Proof.
  intros line read x (body & -> & _) Hrr.
  change [13; 10] with ([13] ++ [10]) in Hrr. rewrite app_assoc in Hrr.
  apply app_inj_tail in Hrr. destruct Hrr as [-> _]. apply ends_cr_snoc.
Qed.

Lemma line_ok_full : forall line, line_ok line -> ends_crlf line = true.
Proof. intros line (body & -> & _). apply ends_crlf_snoc. Qed.

Lemma line_ok_body : forall body, has_crlf body = false -> line_ok (PROXY_SP ++ body ++ CRLF).
Proof.
  intros body H. exists (PROXY_SP ++ body). split; [apply app_assoc|].
  rewrite <- app_assoc, has_crlf_nocr_app, has_crlf_snoc_cr by reflexivity. exact H.
Qed.

Lemma line_loop_done : forall fuel read s, (107 <= length read)%nat ->
  read_line_loop fuel read s = (Ok read, s).
Proof.
  intros [|f] read s H; cbn [read_line_loop];
    rewrite (proj2 (Nat.leb_le _ _) H); reflexivity.
Qed.

(* results a handler can deal with: a value, the module's AssertionError, and
   (v2 / dispatcher only) LocalConnection *)
Definition benign1 {A} (r : res A) : Prop :=
  match r with Ok _ => True | Raise (EAssert _) => True | _ => False end.
Definition benign2 {A} (r : res A) : Prop :=
  match r with Ok _ => True | Raise (EAssert _) => True | Raise ELocal => True | _ => False end.

Lemma benign1_2 : forall A (r : res A), benign1 r -> benign2 r.
Proof. intros A [a|[]|]; cbn; tauto. Qed.

Lemma line_loop_took : forall fuel read s, (107 - length read <= fuel)%nat ->
  took s (snd (read_line_loop fuel read s)) (107 - length read) /\
  benign1 (fst (read_line_loop fuel read s)).
Proof.
  induction fuel as [|f IH]; intros read s Hf;
    (destruct (le_lt_dec 107 (length read)) as [Hle|Hgt];
     [rewrite line_loop_done by exact Hle; split; [apply took_refl|exact I]|]); [lia|].
  cbn [read_line_loop]. rewrite (proj2 (Nat.leb_gt _ _) Hgt).
  destruct (recv_into s _) as [chunk s1] eqn:E. apply recv_into_took in E as [Ed El].
  assert (T1 : took s s1 (length chunk)) by (exists chunk; auto).
  assert (Hc : (length chunk <= 107 - length read)%nat) by lia.
  destruct chunk as [|c chunk]; [|destruct (ends_crlf (read ++ c :: chunk))];
    [split; [exact (took_le T1 Hc)|exact I]..|].
  destruct (IH (read ++ c :: chunk) s1) as [T B]; [rewrite app_length; cbn [length] in *; lia|].
  rewrite app_length in T. split; [apply (took_trans T1 T); lia|exact B].
Qed.

(* On a stream that continues with the rest of a well-formed line the loop
   returns exactly the line: reading two bytes at a time cannot run past the
   final LF, because one byte is asked for as soon as a CR has been read. *)
Lemma line_loop_exact : forall fuel line read rest payload sched,
  line_ok line -> read ++ rest = line ->
  (length line <= 107)%nat -> (1 <= length rest <= fuel)%nat ->
  exists sched',
    read_line_loop fuel read (mk_sock (rest ++ payload) sched) = (Ok line, mk_sock payload sched').
Proof.
  induction fuel as [|f IH]; intros line read rest payload sched Hok Hrr Hlen Hfuel; [lia|].
  assert (Hlr : (length read + length rest = length line)%nat) by (rewrite <- Hrr, app_length; reflexivity).
  cbn [read_line_loop]. rewrite (proj2 (Nat.leb_gt _ _)) by lia.
  set (try_read := Nat.min (107 - length read) (if ends_cr read then 1 else 2)).
  assert (Htry : (1 <= try_read <= length rest)%nat).
  { unfold try_read. destruct rest as [|x [|y rest]]; cbn [length] in *; [lia| |destruct (ends_cr read); lia].
    rewrite (line_ok_last line read x Hok Hrr). lia. }
  destruct (recv_into_app rest payload sched try_read Htry) as (c & chunk & rest' & -> & Hc & ->).
  rewrite app_assoc in Hrr. rewrite app_length in Hlr, Hfuel.
  destruct rest' as [|z rest'].
  - rewrite app_nil_r in Hrr. rewrite Hrr, (line_ok_full line Hok). eexists. reflexivity.
  - rewrite (line_ok_prefix line _ _ Hok Hrr) by discriminate.
    apply (IH line _ (z :: rest') payload (tl sched) Hok Hrr Hlen). cbn [length] in *. lia.
Qed.

Lemma read_pp_line_exact : forall line initial rest payload sched,
  line_ok line -> initial ++ rest = line ->
  (length initial <= 8)%nat -> (9 <= length line <= 107)%nat ->
  exists sched',
    read_pp_line initial (mk_sock (rest ++ payload) sched) = (Ok line, mk_sock payload sched').
Proof.
  intros line initial rest payload sched Hok Hir Hinit Hlen. unfold read_pp_line.
  destruct (read_fill_exact 8 8 line initial rest payload sched Hir) as (sched1 & ->); [lia..|].
  apply line_loop_exact; [exact Hok|apply firstn_skipn|lia|rewrite skipn_length; lia].
Qed.

Lemma read_pp_line_took : forall initial s, (length initial <= 8)%nat ->
  took s (snd (read_pp_line initial s)) (107 - length initial) /\ benign1 (fst (read_pp_line initial s)).
Proof.
  intros initial s Hinit. unfold read_pp_line.
  generalize (read_fill_took 8 8 initial s Hinit ltac:(lia)).
  destruct (read_fill 8 8 initial s) as [[read|e|] s1]; cbn [fst snd]; intros [T1 B1];
    [|subst e; split; [apply (took_le T1); lia|exact I]|contradiction].
  destruct B1 as [_ Hl]. destruct (line_loop_took 107 read s1) as [T2 B2]; [lia|].
  split; [apply (took_trans T1 T2); lia|exact B2].
Qed.

Definition field_char (b : N) : bool := (33 <=? b) && (b <? 127).
Definition field_ok (l : bytes) : bool := forallb field_char l.

Lemma field_ok_app : forall a b, field_ok (a ++ b) = field_ok a && field_ok b.
Proof. intros. apply forallb_app. Qed.

Lemma is_digit_field : forall c, is_digit c = true -> field_char c = true.
Proof.
  intros c H. unfold is_digit in H. apply andb_true_iff in H. destruct H as [H1 H2].
  apply N.leb_le in H1, H2. apply andb_true_iff. split; [apply N.leb_le|apply N.ltb_lt]; lia.
Qed.

Lemma dec_lt10 : forall n, n < 10 -> dec n = [48 + n].
Proof. intros n H. unfold dec. rewrite (proj2 (N.ltb_lt _ _) H). reflexivity. Qed.

Lemma dec_ge10 : forall n, 10 <= n < 100000 -> dec n = dec (n / 10) ++ [48 + n mod 10].
Proof.
  intros n [H1 H2]. unfold dec.
  rewrite (div_ltb 10 n 10 100), (div_ltb 10 n 100 1000), (div_ltb 10 n 1000 10000),
    (div_ltb 10 n 10000 100000) by (reflexivity || discriminate).
  rewrite (div_div' 10 n 10 100), (div_div' 10 n 100 1000), (div_div' 10 n 1000 10000)
    by (reflexivity || discriminate).
  rewrite (proj2 (N.ltb_ge n 10) H1), (proj2 (N.ltb_lt n 100000) H2).
  destruct (n <? 100); [reflexivity|]. destruct (n <? 1000); [reflexivity|].
  destruct (n <? 10000); reflexivity.
Qed.

Definition dec_ind P := radix_ind 10 100000 P eq_refl.

Lemma dec_digits : forall n, n < 100000 -> forallb is_digit (dec n) = true.
Proof.
  apply dec_ind; intros n H.
  - rewrite dec_lt10 by exact H. cbn [forallb]. rewrite is_digit_48 by exact H. reflexivity.
  - intros IH. rewrite dec_ge10, forallb_app, IH by exact H. cbn [forallb].
    rewrite is_digit_48 by (apply N.mod_lt; discriminate). reflexivity.
Qed.

Lemma dec_field : forall n, n < 65536 -> field_ok (dec n) = true.
Proof.
  intros n H. apply (forallb_impl _ _ _ is_digit_field), dec_digits. lia.
Qed.

Lemma dec_val_dec : forall n, n < 100000 -> dec_val (dec n) = n.
Proof.
  unfold dec_val. apply dec_ind; intros n H.
  - rewrite dec_lt10 by exact H. cbn [dec_val_acc]. lia.
  - intros IH. rewrite dec_ge10, dec_val_acc_app, IH by exact H. cbn [dec_val_acc].
    rewrite (N.add_comm 48), N.add_sub. apply digits_eq.
Qed.

Lemma dec_head : forall n, n < 100000 -> 1 <= n -> exists c r, dec n = c :: r /\ c <> 48.
Proof.
  apply (dec_ind (fun n => 1 <= n -> exists c r, dec n = c :: r /\ c <> 48)); intros n H.
  - intros H1. rewrite dec_lt10 by exact H. exists (48 + n), []. split; [reflexivity|lia].
  - intros IH _. rewrite dec_ge10 by exact H.
    destruct IH as (c & r & -> & Hc); [apply N.div_le_lower_bound; lia|].
    exists c, (r ++ [48 + n mod 10]). split; [reflexivity|exact Hc].
Qed.

Lemma dec_length : forall n, (1 <= length (dec n) <= 5)%nat /\ (n < 1000 -> (length (dec n) <= 3)%nat).
Proof.
  intros n. unfold dec.
  destruct (n <? 10); [cbn [length]; lia|]. destruct (n <? 100); [cbn [length]; lia|].
  destruct (N.ltb_spec n 1000); [cbn [length]; lia|]. destruct (n <? 10000); cbn [length]; lia.
Qed.

(* the port check of the repaired __get_pp_port accepts exactly what dec prints *)
Lemma get_pp_port_dec : forall n w1 w2, n < 65536 -> get_pp_port (dec n) w1 w2 = Ok n.
Proof.
  intros n w1 w2 Hn. unfold get_pp_port.
  assert (G : port_guard (dec n) = true).
  { unfold port_guard. rewrite dec_digits by lia.
    destruct (N.lt_ge_cases n 10) as [H|H]; [rewrite dec_lt10 by exact H; cbn [negb]; rewrite andb_false_r; reflexivity|].
    destruct (dec_head n) as (c & r & -> & Hc); [lia..|].
    apply N.eqb_neq in Hc. rewrite Hc. reflexivity. }
  rewrite G, dec_val_dec by lia. rewrite (proj2 (N.leb_le n 65535)) by lia. reflexivity.
Qed.

Lemma pton4_digit : forall d s' done cur saw octets,
  d < 10 -> (saw = true -> cur <> 0) -> cur * 10 + d <= 255 -> (saw = false -> octets < 4) ->
  pton4_go ((48 + d) :: s') done cur saw octets
  = pton4_go s' done (cur * 10 + d) true (if saw then octets else octets + 1).
Proof.
  intros d s' done cur saw octets Hd Hcur Hnew Hoct. cbn [pton4_go].
  rewrite is_digit_48, (N.add_comm 48), N.add_sub, (proj2 (N.ltb_ge _ _) Hnew) by exact Hd.
  destruct saw.
  - rewrite (proj2 (N.eqb_neq _ _) (Hcur eq_refl)). reflexivity.
  - cbn [andb]. rewrite (proj2 (N.ltb_ge _ _)) by (specialize (Hoct eq_refl); lia). reflexivity.
Qed.

Lemma pton4_dot : forall s' done cur octets,
  octets <> 4 ->
  pton4_go (46 :: s') done cur true octets = pton4_go s' (done ++ [cur]) 0 false octets.
Proof.
  intros s' done cur octets H. cbn [pton4_go].
  change (is_digit 46) with false. change (46 =? 46) with true. cbn [andb].
  rewrite (proj2 (N.eqb_neq _ _) H). reflexivity.
Qed.

Lemma pton4_octet : forall a, a < 100000 -> forall s' done octets,
  a < 256 -> octets < 4 ->
  pton4_go (dec a ++ s') done 0 false octets = pton4_go s' done a true (octets + 1).
Proof.
  apply (dec_ind (fun a => forall s' done octets, a < 256 -> octets < 4 ->
    pton4_go (dec a ++ s') done 0 false octets = pton4_go s' done a true (octets + 1)));
    intros a H; [|intros IH]; intros s' done octets Ha Ho.
  - rewrite dec_lt10 by exact H. apply pton4_digit; (discriminate || lia).
  - pose proof (N.div_mod' a 10) as Hd. pose proof (N.mod_lt a 10 ltac:(discriminate)) as Hm.
    rewrite dec_ge10, <- app_assoc by exact H.
    set (q := a / 10) in *. set (r := a mod 10) in *. clearbody q r.
    rewrite IH by lia. cbn [app]. rewrite pton4_digit by (intros; lia). f_equal. lia.
Qed.

Lemma wf_ip_inv : forall n a, wf_ip n a = true -> length a = n /\ Forall (fun b => b < 256) a.
Proof.
  intros n a H. apply andb_true_iff in H. destruct H as [Hl Hb]. apply Nat.eqb_eq in Hl.
  split; [exact Hl|]. apply Forall_forall. intros b Hin.
  apply N.ltb_lt. exact (proj1 (forallb_forall _ _) Hb b Hin).
Qed.

Lemma wf_ip4_inv : forall a, wf_ip 4 a = true ->
  exists a0 a1 a2 a3, a = [a0; a1; a2; a3] /\ a0 < 256 /\ a1 < 256 /\ a2 < 256 /\ a3 < 256.
Proof.
  intros a H. destruct (wf_ip_inv 4 a H) as [Hl Hb].
  destruct a as [|a0 [|a1 [|a2 [|a3 [|? ?]]]]]; try discriminate.
  exists a0, a1, a2, a3. repeat apply Forall_cons_iff in Hb as [? Hb]. auto.
Qed.

Lemma pton4_ntop4 : forall a, wf_ip 4 a = true -> pton4 (ntop4 a) = Some a.
Proof.
  intros a H. destruct (wf_ip4_inv a H) as (a0 & a1 & a2 & a3 & -> & H0 & H1 & H2 & H3).
  unfold pton4, ntop4. rewrite <- (app_nil_r (dec a3)). cbn [app].
  rewrite pton4_octet, pton4_dot, pton4_octet, pton4_dot, pton4_octet, pton4_dot, pton4_octet by lia.
  reflexivity.
Qed.

Lemma ntop4_field : forall a, wf_ip 4 a = true -> field_ok (ntop4 a) = true /\ (length (ntop4 a) <= 15)%nat.
Proof.
  intros a H. destruct (wf_ip4_inv a H) as (a0 & a1 & a2 & a3 & -> & H0 & H1 & H2 & H3).
  unfold ntop4. split.
  - rewrite !field_ok_app, !dec_field by lia. reflexivity.
  - rewrite !app_length. cbn [length].
    pose proof (proj2 (dec_length a0)). pose proof (proj2 (dec_length a1)).
    pose proof (proj2 (dec_length a2)). pose proof (proj2 (dec_length a3)). lia.
Qed.

Lemma field_char_inv : forall b, field_char b = true -> 33 <= b < 127.
Proof.
  intros b H. apply andb_true_iff in H. destruct H as [H1 H2].
  apply N.leb_le in H1. apply N.ltb_lt in H2. split; assumption.
Qed.

Lemma field_ok_ascii : forall l, field_ok l = true -> forallb (fun b => b <? 128) l = true.
Proof.
  intros l. apply forallb_impl. intros b H. apply field_char_inv in H. apply N.ltb_lt. lia.
Qed.

Lemma field_ok_nonul : forall l, field_ok l = true -> existsb (fun b => b =? 0) l = false.
Proof.
  intros l H. apply not_true_is_false. intros E. apply existsb_exists in E.
  destruct E as (b & Hin & Hb). apply N.eqb_eq in Hb.
  apply (proj1 (forallb_forall _ _) H), field_char_inv in Hin. lia.
Qed.

Lemma field_ok_nocr : forall l, field_ok l = true -> forallb (fun b => negb (b =? 13)) l = true.
Proof.
  intros l. apply forallb_impl. intros b H. apply field_char_inv in H.
  apply negb_true_iff, N.eqb_neq. lia.
Qed.

Lemma split_sp_field : forall a, field_ok a = true -> split_sp a = (a, []).
Proof.
  induction a as [|x a IH]; intros H; [reflexivity|].
  cbn [field_ok forallb] in H. apply andb_true_iff in H. destruct H as [Hx Hl].
  apply field_char_inv in Hx. cbn [split_sp]. rewrite (IH Hl), (proj2 (N.eqb_neq x 32)) by lia. reflexivity.
Qed.

Lemma split_sp_app : forall a r, field_ok a = true ->
  split_sp (a ++ 32 :: r) = (a, fst (split_sp r) :: snd (split_sp r)).
Proof.
  induction a as [|x a IH]; intros r H.
  - cbn [app split_sp]. destruct (split_sp r) as [h t]. reflexivity.
  - cbn [field_ok forallb] in H. apply andb_true_iff in H. destruct H as [Hx Hl].
    apply field_char_inv in Hx.
    cbn [app split_sp]. rewrite (IH r Hl), (proj2 (N.eqb_neq x 32)) by lia. reflexivity.
Qed.

(* line[6:-2] of "PROXY " + body + CRLF *)
Lemma line_slice : forall body,
  skipn 6 (firstn (length (PROXY_SP ++ body ++ CRLF) - 2) (PROXY_SP ++ body ++ CRLF)) = body.
Proof.
  intros body. rewrite (app_assoc PROXY_SP body CRLF).
  rewrite firstn_exact by (rewrite (app_length _ CRLF); cbn [length CRLF]; lia). reflexivity.
Qed.

(* What the theorems assume of inet_ntop/inet_pton(AF_INET6): printing a
   16-byte address gives at most 39 printable non-space ASCII characters that
   parse back to the same address. *)
Definition ip6_oracle (pton6 : bytes -> option bytes) (ntop6 : bytes -> bytes) : Prop :=
  forall a, wf_ip 16 a = true ->
    pton6 (ntop6 a) = Some a /\ field_ok (ntop6 a) = true /\ (length (ntop6 a) <= 39)%nat.

Definition fam_len (f : v1family) : nat := match f with F1Inet => 4%nat | F1Inet6 => 16%nat end.
Definition fam_tag (f : v1family) : bytes := match f with F1Inet => TCP4 | F1Inet6 => TCP6 end.

Lemma drop0_repeat : forall n l, drop0 (repeat 0 n ++ l) = drop0 l.
Proof. induction n as [|n IH]; intros l; [reflexivity|]. cbn [repeat app drop0]. apply IH. Qed.

Lemma rstrip0_pad : forall p n,
  (match rev p with 0 :: _ => true | _ => false end) = false -> rstrip0 (p ++ repeat 0 n) = p.
Proof.
  intros p n H. unfold rstrip0. rewrite rev_app_distr, rev_repeat, drop0_repeat.
  rewrite <- (rev_involutive p) at 2. f_equal.
  destruct (rev p) as [|[|q] r]; [reflexivity|discriminate|reflexivity].
Qed.

Lemma wf_path_pad : forall p, wf_path p = true -> length (pad108 p) = 108%nat /\ rstrip0 (pad108 p) = p.
Proof.
  intros p H. unfold wf_path in H. apply andb_prop in H as [H H0]. apply andb_prop in H as [Hl _].
  apply Nat.leb_le in Hl. apply negb_true_iff in H0. unfold pad108. split.
  - rewrite app_length, repeat_length. lia.
  - apply rstrip0_pad, H0.
Qed.

Definition cmd_of (h : hdr2) : command := match h with V2Local _ => CmdLocal | _ => CmdProxy end.
Definition fam_of (h : hdr2) : option family :=
  match h with
  | V2Inet _ _ _ _ _ _ => Some FInet
  | V2Inet6 _ _ _ _ _ _ => Some FInet6
  | V2Unix _ _ _ _ => Some FUnix
  | V2Unspec _ | V2Local _ => None
  end.
Definition hdr16 (h : hdr2) : bytes :=
  SIG12 ++ [v2_vercmd h; v2_famproto h] ++ u16 (N.of_nat (length (v2_block h))).

Lemma enc_v2_shape : forall h, enc_v2 h = hdr16 h ++ v2_block h.
Proof. intros h. unfold enc_v2, hdr16. rewrite <- !app_assoc. reflexivity. Qed.

Lemma hdr16_length : forall h, length (hdr16 h) = 16%nat.
Proof. reflexivity. Qed.

Lemma wf_proto_cases : forall p, wf_proto p = true -> p = 1 \/ p = 2.
Proof. intros p H. apply orb_true_iff in H. destruct H as [H|H]; apply N.eqb_eq in H; auto. Qed.

Lemma parse_hdr16 : forall h, wf2 h = true ->
  exists proto, parse_pp_data (hdr16 h) = Ok (cmd_of h, fam_of h, proto, length (v2_block h)).
Proof.
  intros h Hwf. unfold hdr16, u16.
  set (L := N.of_nat (length (v2_block h))).
  assert (HL : N.to_nat (L / 256 * 256 + L mod 256) = length (v2_block h))
    by (rewrite digits_eq; apply Nat2N.id).
  rewrite <- HL. clearbody L. clear HL.
  destruct h as [pr s d sp dp tlv|pr s d sp dp tlv|pr s d tlv|blob|blob]; cbn [wf2] in Hwf; repeat (apply andb_prop in Hwf as [Hwf ?]).
  1-3: apply wf_proto_cases in Hwf as [-> | ->].
  all: eexists; reflexivity.
Qed.

Definition consumed (s s' : sock) : nat := (length (s_data s) - length (s_data s'))%nat.

Lemma consumed_app : forall hdr payload sched sched',
  consumed (mk_sock (hdr ++ payload) sched) (mk_sock payload sched') = length hdr.
Proof. intros. unfold consumed. cbn [s_data]. rewrite app_length. lia. Qed.

Section Exact.
  Variable pton6 : bytes -> option bytes.
  Variable ntop6 : bytes -> bytes.
  Hypothesis H6 : ip6_oracle pton6 ntop6.

  Lemma c_ntop_ok : forall f a, wf_ip (fam_len f) a = true ->
    c_pton pton6 f (c_ntop ntop6 f a) = Some a /\ field_ok (c_ntop ntop6 f a) = true /\
    (length (c_ntop ntop6 f a) <= 39)%nat.
  Proof.
    intros [|] a H; [|exact (H6 a H)]. destruct (ntop4_field a H) as [Hf Hl].
    split; [exact (pton4_ntop4 a H)|]. split; [exact Hf|cbn [c_ntop]; lia].
  Qed.

  Lemma get_pp_ip_ok : forall f a w, wf_ip (fam_len f) a = true ->
    get_pp_ip pton6 ntop6 f (c_ntop ntop6 f a) w = Ok (c_ntop ntop6 f a).
  Proof.
    intros f a w H. destruct (c_ntop_ok f a H) as (Hp & Hf & _).
    unfold get_pp_ip, py_decode_ascii, py_inet_pton.
    rewrite (field_ok_ascii _ Hf), (field_ok_nonul _ Hf), Hp. reflexivity.
  Qed.

  Lemma tcp_line : forall f s d sp dp,
    wf_ip (fam_len f) s = true -> wf_ip (fam_len f) d = true -> sp < 65536 -> dp < 65536 ->
    let line := PROXY_SP ++ fam_tag f ++ SP ++ c_ntop ntop6 f s ++ SP ++ c_ntop ntop6 f d
                  ++ SP ++ dec sp ++ SP ++ dec dp ++ CRLF in
    line_ok line /\ (9 <= length line <= 107)%nat /\
    parse_pp_line pton6 ntop6 line = Ok (AIp (c_ntop ntop6 f s) sp, AIp (c_ntop ntop6 f d) dp).
  Proof.
    intros f s d sp dp Hs Hd Hsp Hdp line.
    set (body := fam_tag f ++ SP ++ c_ntop ntop6 f s ++ SP ++ c_ntop ntop6 f d ++ SP ++ dec sp ++ SP ++ dec dp).
    assert (E : line = PROXY_SP ++ body ++ CRLF)
      by (subst line body; rewrite <- !app_assoc; reflexivity).
    rewrite E. clear E line.
    destruct (c_ntop_ok f s Hs) as (_ & Hfs & Hls). destruct (c_ntop_ok f d Hd) as (_ & Hfd & Hld).
    pose proof (dec_field sp Hsp) as Hfsp. pose proof (dec_field dp Hdp) as Hfdp.
    assert (Hft : field_ok (fam_tag f) = true /\ length (fam_tag f) = 4%nat /\
                  beqb (fam_tag f) UNKNOWN = false /\ get_pp_family (fam_tag f) = Ok f)
      by (destruct f; repeat split; reflexivity).
    destruct Hft as (Hft & Hlt & Hu & Hfam).
    split; [|split].
    - apply line_ok_body. rewrite <- (app_nil_r body), has_crlf_nocr_app; [reflexivity|].
      unfold body. rewrite !forallb_app.
      rewrite (field_ok_nocr _ Hft), (field_ok_nocr _ Hfs), (field_ok_nocr _ Hfd),
        (field_ok_nocr _ Hfsp), (field_ok_nocr _ Hfdp). reflexivity.
    - unfold body. rewrite !app_length, Hlt.
      pose proof (proj1 (dec_length sp)). pose proof (proj1 (dec_length dp)).
      cbn [length PROXY_SP SP CRLF]. lia.
    - unfold parse_pp_line.
      rewrite starts_with_app, app_assoc, ends_crlf_snoc, <- app_assoc. cbn [andb negb].
      rewrite line_slice. unfold body, SP. cbn [app].
      rewrite !split_sp_app, split_sp_field by assumption. cbn [fst snd].
      rewrite Hu, Hfam, !get_pp_ip_ok, !get_pp_port_dec by assumption. reflexivity.
  Qed.

  Lemma unknown_line : forall rest, wf1 (V1Unknown rest) = true ->
    let line := PROXY_SP ++ UNKNOWN ++ rest ++ CRLF in
    line_ok line /\ (9 <= length line <= 107)%nat /\
    parse_pp_line pton6 ntop6 line = Ok (ANone, ANone).
  Proof.
    intros rest Hwf line. cbn [wf1] in Hwf.
    apply andb_prop in Hwf as [Hwf Hlen]. apply andb_prop in Hwf as [Hsp Hcr].
    apply Nat.leb_le in Hlen. apply negb_true_iff in Hcr.
    assert (E : line = PROXY_SP ++ (UNKNOWN ++ rest) ++ CRLF) by (subst line; rewrite <- !app_assoc; reflexivity).
    rewrite E. clear E line.
    split; [|split].
    - apply line_ok_body. rewrite has_crlf_nocr_app by reflexivity. exact Hcr.
    - rewrite !app_length. cbn [length PROXY_SP UNKNOWN CRLF]. lia.
    - unfold parse_pp_line.
      rewrite starts_with_app, app_assoc, ends_crlf_snoc, <- app_assoc. cbn [andb negb].
      rewrite line_slice.
      assert (Hsplit : fst (split_sp (UNKNOWN ++ rest)) = UNKNOWN).
      { destruct rest as [|c rest]; [reflexivity|].
        apply N.eqb_eq in Hsp. subst c. rewrite split_sp_app by reflexivity. reflexivity. }
      destruct (split_sp (UNKNOWN ++ rest)) as [p0 ps]. cbn [fst] in Hsplit. subst p0. reflexivity.
  Qed.

  Lemma wf1_line : forall h, wf1 h = true ->
    line_ok (enc_v1 ntop6 h) /\ (9 <= length (enc_v1 ntop6 h) <= 107)%nat /\
    parse_pp_line pton6 ntop6 (enc_v1 ntop6 h) = Ok (expect1 ntop6 h).
  Proof.
    intros [s d sp dp|s d sp dp|rest] H; [| |exact (unknown_line rest H)];
      cbn [wf1] in H; do 3 (apply andb_prop in H as [H ?]).
    - apply (tcp_line F1Inet); (assumption || apply N.ltb_lt; assumption).
    - apply (tcp_line F1Inet6); (assumption || apply N.ltb_lt; assumption).
  Qed.

  (* process_pp_v1 after [initial] has already been taken from the stream *)
  Lemma process_v1_exact : forall h initial rest payload sched,
    wf1 h = true -> initial ++ rest = enc_v1 ntop6 h -> (length initial <= 8)%nat ->
    exists sched',
      process_pp_v1 pton6 ntop6 initial (mk_sock (rest ++ payload) sched)
      = (Ok (expect1 ntop6 h), mk_sock payload sched').
  Proof.
    intros h initial rest payload sched Hwf Hir Hinit.
    destruct (wf1_line h Hwf) as (Hok & Hlen & Hparse).
    destruct (read_pp_line_exact _ initial rest payload sched Hok Hir Hinit Hlen) as (sched' & Hq).
    exists sched'. unfold process_pp_v1. rewrite Hq, Hparse. reflexivity.
  Qed.

  Lemma parse_block : forall h, wf2 h = true ->
    parse_pp_addresses ntop6 (fam_of h) (v2_block h)
    = match expect2 ntop6 h with Raise _ => Ok (ANone, ANone) | r => r end.
  Proof.
    intros [pr s d sp dp tlv|pr s d sp dp tlv|pr s d tlv|blob|blob] Hwf; [| | |reflexivity..];
      cbn [wf2] in Hwf; repeat (apply andb_prop in Hwf as [Hwf ?]); cbn [fam_of v2_block expect2].
    (* the ports are read back from the two bytes [u16] wrote *)
    1-2: unfold u16; generalize (digits_eq 256 sp) (digits_eq 256 dp);
         generalize (sp / 256) (sp mod 256) (dp / 256) (dp mod 256); intros a b c e <- <-.
    - destruct (wf_ip4_inv s) as (s0 & s1 & s2 & s3 & -> & _); [assumption|].
      destruct (wf_ip4_inv d) as (d0 & d1 & d2 & d3 & -> & _); [assumption|]. reflexivity.
    - destruct (wf_ip_inv 16 s) as [Hs _]; [assumption|]. destruct (wf_ip_inv 16 d) as [Hd _]; [assumption|].
      (* a list of length 16 is sixteen elements (of the seventeen splits all but one contradict Hs, Hd);
         on explicit lists the slices and indexes of the parser compute *)
      do 17 (destruct s as [|? s]; try discriminate). do 17 (destruct d as [|? d]; try discriminate).
      reflexivity.
    - destruct (wf_path_pad s) as [Hls Hrs]; [assumption|]. destruct (wf_path_pad d) as [Hld Hrd]; [assumption|].
      unfold parse_pp_addresses. rewrite app_assoc, firstn_exact by (rewrite app_length, Hls, Hld; reflexivity).
      rewrite app_length, Hls, Hld, firstn_exact, skipn_exact, Hrs, Hrd by assumption. reflexivity.
  Qed.

  Lemma process_v2_exact : forall h initial rest payload sched,
    wf2 h = true -> initial ++ rest = enc_v2 h -> (length initial <= 16)%nat ->
    exists sched',
      process_pp_v2 ntop6 initial (mk_sock (rest ++ payload) sched)
      = (expect2 ntop6 h, mk_sock payload sched').
  Proof.
    intros h initial rest payload sched Hwf Hir Hinit. rewrite enc_v2_shape in Hir. unfold process_pp_v2, read_pp_data.
    destruct (read_fill_exact 16 16 _ initial rest payload sched Hir) as (sched1 & ->);
      [rewrite app_length, hdr16_length; lia|lia|].
    rewrite firstn_exact, skipn_exact by reflexivity.
    destruct (parse_hdr16 h Hwf) as (proto & ->).
    destruct (read_fill_exact (length (v2_block h)) (length (v2_block h)) (v2_block h) [] (v2_block h) payload sched1 eq_refl)
      as (sched2 & ->); [cbn [length]; lia..|].
    rewrite firstn_all, skipn_all, (parse_block h Hwf). exists sched2. destruct h; reflexivity.
  Qed.

  Lemma auto_v1 : forall h payload sched, wf1 h = true ->
    exists s',
      process_auto pton6 ntop6 (mk_sock (enc_v1 ntop6 h ++ payload) sched) = (Ok (expect1 ntop6 h), s') /\
      s_data s' = payload.
  Proof.
    intros h payload sched Hwf. destruct (wf1_line h Hwf) as (_ & Hlen & _). unfold process_auto.
    destruct (read_fill_exact 8 8 (enc_v1 ntop6 h) [] (enc_v1 ntop6 h) payload sched eq_refl) as (sched1 & ->); [cbn [length]; lia..|].
    replace (starts_with PROXY_SP (firstn 8 (enc_v1 ntop6 h))) with true by (destruct h; reflexivity).
    destruct (process_v1_exact h (firstn 8 (enc_v1 ntop6 h)) (skipn 8 (enc_v1 ntop6 h)) payload sched1 Hwf)
      as (sched' & ->); [apply firstn_skipn|rewrite firstn_length; lia|].
    exists (mk_sock payload sched'). split; reflexivity.
  Qed.

  Lemma auto_v2 : forall h payload sched, wf2 h = true ->
    exists s',
      process_auto pton6 ntop6 (mk_sock (enc_v2 h ++ payload) sched) = (expect2 ntop6 h, s') /\
      s_data s' = payload.
  Proof.
    intros h payload sched Hwf. unfold process_auto.
    destruct (read_fill_exact 8 8 (enc_v2 h) [] (enc_v2 h) payload sched eq_refl) as (sched1 & ->);
      [rewrite enc_v2_shape, app_length, hdr16_length; cbn [length]; lia|cbn [length]; lia|].
    change (firstn 8 (enc_v2 h)) with SIG8. cbn [starts_with PROXY_SP SIG8 beqb N.eqb Pos.eqb andb].
    destruct (process_v2_exact h SIG8 (skipn 8 (enc_v2 h)) payload sched1 Hwf)
      as (sched' & ->); [apply (firstn_skipn 8 (enc_v2 h))|cbn [length SIG8]; lia|].
    exists (mk_sock payload sched'). split; reflexivity.
  Qed.
End Exact.

(* the parsers chain their steps with this match: an exception of a step is
   the exception of the whole *)
Lemma benign1_bind : forall A B (x : res A) (f : A -> res B),
  benign1 x -> (forall a, benign1 (f a)) ->
  benign1 match x with Ok a => f a | Raise e => Raise e | OutOfFuel => OutOfFuel end.
Proof. intros A B [a|e|] f Hx Hf; [apply Hf|exact Hx..]. Qed.

Lemma parse_pp_data_cases : forall data, length data = 16%nat ->
  match parse_pp_data data with
  | Ok (_, _, _, n) => forall rest, declared (data ++ rest) = n
  | Raise (EAssert _) => True
  | _ => False
  end.
Proof.
  intros data Hlen. do 17 (destruct data as [|? data]; try discriminate).
  unfold parse_pp_data, firstn, skipn.
  destruct (negb (beqb _ SIG12)); [exact I|]. destruct (negb (N.land _ 240 =? 32)); [exact I|].
  destruct (match N.land _ 15 with 0 => Some CmdLocal | 1 => Some CmdProxy | _ => None end) as [c|]; [|exact I].
  match goal with |- match (if ?b then _ else _) with _ => _ end => destruct b end; [|exact I].
  intros rest. reflexivity.
Qed.

Lemma parse_pp_addresses_cases : forall ntop6 fam d,
  match parse_pp_addresses ntop6 fam d with
  | Ok _ => True
  | Raise EStruct => True
  | _ => False
  end.
Proof.
  intros ntop6 [[| |]|] d; cbn [parse_pp_addresses]; [destruct (negb _)..|]; exact I.
Qed.

(* outcomes of handle() the property allows *)
Definition settled (h : hres) : Prop :=
  match h with
  | HAddr _ | HInvalid _ | HLocal => True
  | HEscape _ | HFuel => False
  end.

Lemma finish_every : forall x s n, took s (snd x) n /\ benign2 (fst x) ->
  took s (snd (finish x)) n /\ settled (fst (finish x)).
Proof. intros [[[src dst]|[]|] s'] s n [T B]; try contradiction; split; (exact T || exact I). Qed.

Section Every.
  Variable pton6 : bytes -> option bytes.
  Variable ntop6 : bytes -> bytes.

  Lemma get_pp_ip_benign : forall f s w, benign1 (get_pp_ip pton6 ntop6 f s w).
  Proof.
    intros f s w. unfold get_pp_ip, py_decode_ascii, py_inet_pton.
    destruct (forallb (fun b => b <? 128) s); [|exact I].
    destruct (existsb (fun b => b =? 0) s); [exact I|].
    destruct (c_pton pton6 f s); exact I.
  Qed.

  Lemma get_pp_port_benign : forall p w1 w2, benign1 (get_pp_port p w1 w2).
  Proof.
    intros p w1 w2. unfold get_pp_port. destruct (port_guard p); [|exact I].
    destruct (dec_val p <=? 65535); exact I.
  Qed.

  Lemma parse_pp_line_benign : forall line, benign1 (parse_pp_line pton6 ntop6 line).
  Proof.
    intros line. unfold parse_pp_line.
    destruct (negb (starts_with PROXY_SP line && ends_crlf line)); [exact I|].
    destruct (split_sp (skipn 6 (firstn (length line - 2) line))) as [p0 rest].
    destruct (beqb p0 UNKNOWN); [exact I|].
    apply benign1_bind.
    { unfold get_pp_family. destruct (beqb p0 TCP4); [exact I|]. destruct (beqb p0 TCP6); exact I. }
    intros fam. destruct rest as [|p1 [|p2 [|p3 [|p4 [|? ?]]]]]; try exact I.
    apply benign1_bind; [apply get_pp_ip_benign|intros sip].
    apply benign1_bind; [apply get_pp_port_benign|intros sport].
    apply benign1_bind; [apply get_pp_ip_benign|intros dip].
    apply benign1_bind; [apply get_pp_port_benign|intros dport]. exact I.
  Qed.

  Lemma process_v1_took : forall initial s, (length initial <= 8)%nat ->
    took s (snd (process_pp_v1 pton6 ntop6 initial s)) (107 - length initial) /\
    benign1 (fst (process_pp_v1 pton6 ntop6 initial s)).
  Proof.
    intros initial s Hinit. unfold process_pp_v1. generalize (read_pp_line_took initial s Hinit).
    destruct (read_pp_line initial s) as [[line|e|] s1]; cbn [fst snd]; intros [T B];
      (split; [exact T|]); [apply parse_pp_line_benign|exact B..].
  Qed.

  Lemma process_v2_took : forall initial s, (length initial <= 16)%nat ->
    took s (snd (process_pp_v2 ntop6 initial s)) (16 + declared (initial ++ s_data s) - length initial) /\
    benign2 (fst (process_pp_v2 ntop6 initial s)).
  Proof.
    intros initial s Hinit. unfold process_pp_v2, read_pp_data.
    generalize (read_fill_took 16 16 initial s Hinit ltac:(lia)).
    destruct (read_fill 16 16 initial s) as [[data|e|] s1]; cbn [fst snd]; intros [T1 B1];
      [|subst e; split; [apply (took_le T1); lia|exact I]|contradiction].
    destruct B1 as [<- Hl]. generalize (parse_pp_data_cases data Hl).
    destruct (parse_pp_data data) as [[[[cmd fam] proto] addr_len]|[]|]; try contradiction; intros Hp;
      [|split; [apply (took_le T1); lia|exact I]].
    rewrite Hp. generalize (read_fill_took addr_len addr_len [] s1 (Nat.le_0_l _) ltac:(cbn [length]; lia)).
    destruct (read_fill addr_len addr_len [] s1) as [[addr_data|e|] s2]; cbn [fst snd length]; intros [T2 B2];
      [|subst e|contradiction].
    all: assert (T : took s s2 (16 + addr_len - length initial)) by (apply (took_trans T1 T2); lia).
    2: split; [exact T|exact I].
    generalize (parse_pp_addresses_cases ntop6 fam addr_data).
    destruct (parse_pp_addresses ntop6 fam addr_data) as [ret|[]|]; try contradiction; intros _;
      [destruct cmd|]; (split; [exact T|exact I]).
  Qed.

  Lemma process_auto_took : forall s,
    took s (snd (process_auto pton6 ntop6 s))
         (if starts_with PROXY_SP (s_data s) then 107 else 16 + declared (s_data s)) /\
    benign2 (fst (process_auto pton6 ntop6 s)).
  Proof.
    intros s. unfold process_auto.
    generalize (read_fill_took 8 8 [] s (Nat.le_0_l _) ltac:(cbn [length]; lia)).
    destruct (read_fill 8 8 [] s) as [[initial|e|] s0]; cbn [fst snd length app]; intros [T0 B0];
      [|subst e; split; [apply (took_le T0); destruct (starts_with _ _); lia|exact I]|contradiction].
    destruct B0 as [<- Hl]. rewrite starts_with_app_long by (rewrite Hl; cbn [length PROXY_SP]; lia).
    destruct (starts_with PROXY_SP initial); [|destruct (beqb initial SIG8)].
    - destruct (process_v1_took initial s0) as [T B]; [lia|].
      split; [apply (took_trans T0 T); lia|apply benign1_2, B].
    - destruct (process_v2_took initial s0) as [T B]; [lia|].
      split; [apply (took_trans T0 T); lia|exact B].
    - split; [apply (took_le T0); lia|exact I].
  Qed.

  Lemma handle_v2_every : forall s,
    took s (snd (handle_v2 ntop6 s)) (16 + declared (s_data s)) /\ settled (fst (handle_v2 ntop6 s)).
  Proof.
    intros s. apply finish_every. rewrite <- (Nat.sub_0_r (16 + _)). exact (process_v2_took [] s (Nat.le_0_l 16)).
  Qed.

  Lemma handle_auto_every : forall s,
    took s (snd (handle_auto pton6 ntop6 s))
         (if starts_with PROXY_SP (s_data s) then 107 else 16 + declared (s_data s)) /\
    settled (fst (handle_auto pton6 ntop6 s)).
  Proof. intros s. apply finish_every, process_auto_took. Qed.

  (* ProxyProtocolV1.handle has no `except LocalConnection`, and needs none *)
  Lemma handle_v1_every : forall s,
    took s (snd (handle_v1 pton6 ntop6 s)) 107 /\
    match fst (handle_v1 pton6 ntop6 s) with HAddr _ | HInvalid _ => True | _ => False end.
  Proof.
    intros s. unfold handle_v1. generalize (process_v1_took [] s (Nat.le_0_l 8)).
    destruct (process_pp_v1 pton6 ntop6 [] s) as [[[src dst]|[]|] s']; intros [T B];
      try contradiction; split; (exact T || exact I).
  Qed.
End Every.

(* the hypotheses of the exactness theorems are satisfiable *)
Example wf1_tcp4_example : wf1 (V1Tcp4 [192; 168; 0; 1] [10; 0; 0; 255] 56324 25) = true.
Proof. reflexivity. Qed.
Example wf1_tcp6_example :
  wf1 (V1Tcp6 [32; 1; 13; 184; 0; 0; 0; 0; 0; 0; 0; 0; 0; 0; 0; 1] [0; 0; 0; 0; 0; 0; 0; 0; 0; 0; 255; 255; 1; 2; 3; 4] 65535 0) = true.
Proof. reflexivity. Qed.
Example wf1_unknown_example : wf1 (V1Unknown [32; 120; 13; 121]) = true.
Proof. reflexivity. Qed.
Example wf2_inet_example : wf2 (V2Inet 1 [1; 2; 3; 4] [5; 6; 7; 8] 4321 25 [4; 0; 1; 0]) = true.
Proof. reflexivity. Qed.
Example wf2_unix_example : wf2 (V2Unix 2 [47; 97] [0; 98] [1; 2; 3]) = true.
Proof. reflexivity. Qed.
Example wf2_local_example : wf2 (V2Local [1; 2]) = true.
Proof. reflexivity. Qed.

(* glibc's inet_ntop6 / inet_pton6 on eight 16-bit words [ws]: their 16 bytes,
   their hex groups each after a colon, and joined by colons *)
Definition wbytes (ws : list N) : bytes := flat_map (fun w => [w / 256; w mod 256]) ws.
Definition cgroups (ws : list N) : bytes := flat_map (fun w => 58 :: hex w) ws.
Definition groups (ws : list N) : bytes :=
  match ws with [] => [] | w :: r => hex w ++ cgroups r end.
Definition words_ok (ws : list N) : Prop := Forall (fun w => w < 65536) ws.

Lemma hex_lt16 : forall w, w < 16 -> hex w = [hexdig w].
Proof. intros w H. unfold hex. rewrite (proj2 (N.ltb_lt _ _) H). reflexivity. Qed.

Lemma hex_ge16 : forall w, 16 <= w < 65536 -> hex w = hex (w / 16) ++ [hexdig (w mod 16)].
Proof.
  intros w [H1 H2]. unfold hex.
  rewrite (div_ltb 16 w 16 256), (div_ltb 16 w 256 4096), (div_ltb 16 w 4096 65536) by (reflexivity || discriminate).
  rewrite (div_div' 16 w 16 256), (div_div' 16 w 256 4096) by (reflexivity || discriminate).
  rewrite (proj2 (N.ltb_ge w 16) H1), (proj2 (N.ltb_lt w 65536) H2).
  destruct (w <? 256); [reflexivity|]. destruct (w <? 4096); reflexivity.
Qed.

Definition hex_ind P := radix_ind 16 65536 P eq_refl.

Lemma hex_length : forall w, (1 <= length (hex w) <= 4)%nat.
Proof.
  intros w. unfold hex.
  destruct (w <? 16); [cbn [length]; lia|]. destruct (w <? 256); [cbn [length]; lia|].
  destruct (w <? 4096); cbn [length]; lia.
Qed.

Lemma hexdig_char : forall d, d < 16 ->
  hexval (hexdig d) = Some d /\ field_char (hexdig d) = true /\ hexdig d <> 58.
Proof.
  intros d H. unfold hexdig. destruct (N.ltb_spec d 10) as [E|E].
  - split; [|split; [apply is_digit_field, is_digit_48, E|lia]].
    unfold hexval. rewrite is_digit_48, (N.add_comm 48), N.add_sub by exact E. reflexivity.
  - split; [|split; [unfold field_char; rewrite (proj2 (N.leb_le 33 _)), (proj2 (N.ltb_lt _ 127)) by lia; reflexivity|lia]].
    unfold hexval, is_digit.
    rewrite (proj2 (N.leb_gt (87 + d) 57)), andb_false_r, (proj2 (N.leb_le 97 _)), (proj2 (N.leb_le _ 102)) by lia.
    cbn [andb]. rewrite (N.add_comm 87), N.add_sub. reflexivity.
Qed.

Lemma hex_chars : forall w, w < 65536 ->
  field_ok (hex w) = true /\ exists d t, d < 16 /\ hex w = hexdig d :: t.
Proof.
  apply hex_ind; intros w H.
  - rewrite hex_lt16 by exact H. cbn [field_ok forallb].
    rewrite (proj1 (proj2 (hexdig_char w H))). split; [reflexivity|]. exists w, []. auto.
  - intros (Hf & d & t & Hd & Ht). rewrite hex_ge16, field_ok_app, Hf, Ht by exact H. cbn [field_ok forallb].
    rewrite (proj1 (proj2 (hexdig_char _ (N.mod_lt w 16 ltac:(discriminate))))).
    split; [reflexivity|]. exists d, (t ++ [hexdig (w mod 16)]). auto.
Qed.

Lemma hex_step : forall d s ct tp cp seen val,
  d < 16 -> seen < 4 -> val * 16 + d <= 65535 ->
  pton6_go (hexdig d :: s) ct tp cp seen val = pton6_go s ct tp cp (seen + 1) (val * 16 + d).
Proof.
  intros d s ct tp cp seen val Hd Hs Hv. cbn [pton6_go]. rewrite (proj1 (hexdig_char d Hd)).
  rewrite (proj2 (N.eqb_neq seen 4)), (proj2 (N.ltb_ge _ _) Hv) by lia. reflexivity.
Qed.

Lemma hex_group : forall w, w < 65536 -> forall s ct tp cp,
  pton6_go (hex w ++ s) ct tp cp 0 0 = pton6_go s ct tp cp (N.of_nat (length (hex w))) w.
Proof.
  apply (hex_ind (fun w => forall s ct tp cp,
    pton6_go (hex w ++ s) ct tp cp 0 0 = pton6_go s ct tp cp (N.of_nat (length (hex w))) w));
    intros w H; [|intros IH]; intros s ct tp cp.
  - rewrite hex_lt16 by exact H. apply hex_step; lia.
  - pose proof (hex_length w) as Hl. rewrite hex_ge16 in Hl |- * by exact H.
    rewrite app_length in Hl |- *. cbn [length] in Hl |- *.
    pose proof (N.div_mod' w 16) as Hd. pose proof (N.mod_lt w 16 ltac:(discriminate)) as Hm.
    rewrite <- app_assoc, IH. cbn [app].
    set (q := w / 16) in *. set (r := w mod 16) in *. clearbody q r.
    rewrite hex_step by lia. f_equal; lia.
Qed.

Lemma colon_sep : forall s ct tp cp n w,
  1 <= n -> s <> [] -> (length tp + 2 <= 16)%nat ->
  pton6_go (58 :: s) ct tp cp n w = pton6_go s s (tp ++ [w / 256; w mod 256]) cp 0 0.
Proof.
  intros s ct tp cp n w Hn Hs Hl. cbn [pton6_go].
  change (hexval 58) with (@None N). change (58 =? 58) with true. cbv iota.
  rewrite (proj2 (N.eqb_neq n 0)) by lia.
  destruct s as [|c s]; [congruence|].
  rewrite (proj2 (Nat.ltb_ge _ _)) by lia. reflexivity.
Qed.

Lemma colon_double : forall s ct tp val,
  pton6_go (58 :: s) ct tp None 0 val = pton6_go s s tp (Some (length tp)) 0 val.
Proof. intros. reflexivity. Qed.

Lemma wbytes_length : forall ws, length (wbytes ws) = (2 * length ws)%nat.
Proof.
  induction ws as [|w ws IH]; [reflexivity|].
  change (wbytes (w :: ws)) with (w / 256 :: w mod 256 :: wbytes ws). cbn [length]. rewrite IH. lia.
Qed.

Lemma groups_head : forall w r, words_ok (w :: r) -> exists d t, d < 16 /\ groups (w :: r) = hexdig d :: t.
Proof.
  intros w r Hok. inversion Hok; subst.
  destruct (hex_chars w) as (_ & d & t & Hd & Ht); [assumption|].
  exists d, (t ++ cgroups r). cbn [groups]. rewrite Ht. auto.
Qed.

(* A non-empty run of groups, starting at a token boundary: every group but
   the last has been stored, the last one is pending; storing it as well gives
   the bytes of all the words. *)
Lemma parse_groups : forall r w s ct tp cp,
  words_ok (w :: r) -> (length tp + 2 * length r <= 16)%nat ->
  exists ct' tp' n v, 1 <= n <= 4 /\ tp' ++ [v / 256; v mod 256] = tp ++ wbytes (w :: r) /\
    pton6_go (groups (w :: r) ++ s) ct tp cp 0 0 = pton6_go s ct' tp' cp n v.
Proof.
  induction r as [|w2 r IH]; intros w s ct tp cp Hok Hlen; inversion Hok as [|? ? Hw Hok']; subst;
    cbn [groups]; rewrite <- app_assoc, hex_group by exact Hw; pose proof (hex_length w).
  - exists ct, tp, (N.of_nat (length (hex w))), w. split; [lia|]. split; reflexivity.
  - cbn [length] in Hlen. change (cgroups (w2 :: r)) with (58 :: groups (w2 :: r)). cbn [app].
    rewrite colon_sep; [|lia| |lia].
    2:{ destruct (groups_head w2 r Hok') as (d & t & _ & ->). discriminate. }
    destruct (IH w2 s (groups (w2 :: r) ++ s) (tp ++ [w / 256; w mod 256]) cp Hok') as (ct' & tp' & n & v & Hn & Hb & ->).
    { rewrite app_length. cbn [length]. lia. }
    exists ct', tp', n, v. split; [exact Hn|]. split; [|reflexivity].
    rewrite Hb, <- app_assoc. reflexivity.
Qed.

Lemma finish_pending : forall tp cp n v,
  1 <= n -> (length tp + 2 <= 16)%nat ->
  pton6_finish (tp, cp, n, v) = pton6_finish (tp ++ [v / 256; v mod 256], cp, 0, 0).
Proof.
  intros tp cp n v Hn Hlen. unfold pton6_finish.
  rewrite (proj2 (N.ltb_lt 0 n)), (proj2 (Nat.ltb_ge _ _)) by lia. reflexivity.
Qed.

Lemma go_groups_end : forall w r ct tp cp,
  words_ok (w :: r) -> (length tp + 2 * length r + 2 <= 16)%nat ->
  exists st, pton6_go (groups (w :: r)) ct tp cp 0 0 = Some st /\
    pton6_finish st = pton6_finish (tp ++ wbytes (w :: r), cp, 0, 0).
Proof.
  intros w r ct tp cp Hok Hlen.
  destruct (parse_groups r w [] ct tp cp Hok ltac:(lia)) as (ct' & tp' & n & v & Hn & Hb & Hq).
  rewrite app_nil_r in Hq. rewrite Hq. eexists. split; [reflexivity|].
  rewrite <- Hb. apply finish_pending; [lia|].
  apply (f_equal (@length _)) in Hb. rewrite !app_length, wbytes_length in Hb. cbn [length] in Hb. lia.
Qed.

Lemma start_group : forall w r s, words_ok (w :: r) ->
  pton6_start (groups (w :: r) ++ s) = Some (groups (w :: r) ++ s).
Proof.
  intros w r s Hok. destruct (groups_head w r Hok) as (d & t & Hd & ->).
  cbn [app pton6_start]. rewrite (proj2 (N.eqb_neq _ _) (proj2 (proj2 (hexdig_char d Hd)))). reflexivity.
Qed.

Lemma pton6_plain : forall w r, length r = 7%nat -> words_ok (w :: r) ->
  glibc_pton6 (groups (w :: r)) = Some (wbytes (w :: r)).
Proof.
  intros w r Hl Hok. unfold glibc_pton6.
  rewrite <- (app_nil_r (groups (w :: r))), start_group by exact Hok. rewrite app_nil_r.
  destruct (go_groups_end w r (groups (w :: r)) [] None Hok) as (st & -> & ->); [cbn [length]; lia|].
  cbn [app]. unfold pton6_finish. cbn [N.ltb N.compare]. rewrite wbytes_length. cbn [length]. rewrite Hl. reflexivity.
Qed.

(* the end of a string with "::": the gap is filled with zeros *)
Lemma finish_dc : forall tp X v, (length tp + length X < 16)%nat ->
  pton6_finish (tp ++ X, Some (length tp), 0, v)
  = Some (tp ++ repeat 0 (16 - length tp - length X) ++ X).
Proof.
  intros tp X v H. unfold pton6_finish. cbn [N.ltb N.compare].
  rewrite (proj2 (Nat.eqb_neq (length (tp ++ X)) 16)) by (rewrite app_length; lia).
  rewrite firstn_exact, skipn_exact by reflexivity.
  replace (16 - length (tp ++ X))%nat with (16 - length tp - length X)%nat by (rewrite app_length; lia).
  rewrite (proj2 (Nat.eqb_eq _ 16)) by (rewrite !app_length, repeat_length; lia). reflexivity.
Qed.

Lemma after_dc : forall B ct tp, words_ok B -> (length tp + 2 * length B <= 14)%nat ->
  exists st, pton6_go (groups B) ct tp (Some (length tp)) 0 0 = Some st /\
    pton6_finish st = Some (tp ++ repeat 0 (16 - length tp - 2 * length B) ++ wbytes B).
Proof.
  intros [|w r] ct tp Hok Hlen.
  - eexists. split; [reflexivity|].
    rewrite <- (app_nil_r tp) at 1. rewrite finish_dc by (cbn [length]; lia). reflexivity.
  - cbn [length] in Hlen.
    destruct (go_groups_end w r ct tp (Some (length tp)) Hok) as (st & Hgo & Hfin); [lia|].
    exists st. split; [exact Hgo|].
    rewrite Hfin, finish_dc, wbytes_length by (rewrite wbytes_length; cbn [length]; lia). reflexivity.
Qed.

Lemma pton6_dc : forall A B, words_ok A -> words_ok B -> (length A + length B <= 7)%nat ->
  glibc_pton6 (groups A ++ 58 :: 58 :: groups B)
  = Some (wbytes A ++ repeat 0 (16 - 2 * length A - 2 * length B) ++ wbytes B).
Proof.
  intros [|w r] B HA HB Hlen; unfold glibc_pton6.
  - cbn [groups app pton6_start N.eqb Pos.eqb]. rewrite colon_double.
    destruct (after_dc B (groups B) [] HB) as (st & -> & ->); [cbn [length] in *; lia|]. reflexivity.
  - rewrite start_group by exact HA. cbn [length] in Hlen.
    destruct (parse_groups r w (58 :: 58 :: groups B) (groups (w :: r) ++ 58 :: 58 :: groups B) [] None HA)
      as (ct' & tp' & n & v & Hn & Hb & ->); [cbn [length]; lia|].
    assert (Hl : (length tp' + 2 = 2 * S (length r))%nat).
    { apply (f_equal (@length _)) in Hb. cbn [app] in Hb. rewrite app_length, wbytes_length in Hb. exact Hb. }
    rewrite colon_sep, Hb, colon_double by (lia || discriminate). cbn [app].
    destruct (after_dc B (groups B) (wbytes (w :: r)) HB) as (st & -> & ->);
      rewrite wbytes_length; [cbn [length]; lia|reflexivity].
Qed.

Lemma digit_hexdig : forall c, is_digit c = true -> exists d, d < 10 /\ c = hexdig d.
Proof.
  intros c H. apply andb_prop in H as [H1 H2]. apply N.leb_le in H1, H2.
  exists (c - 48). split; [lia|]. unfold hexdig. rewrite (proj2 (N.ltb_lt _ 10)) by lia. lia.
Qed.

(* decimal digits are taken for a hex group, until the dot shows that they
   were not; after [seen] digits the value is below 16 ^ seen *)
Lemma digits_as_hex : forall l s ct tp cp seen val, forallb is_digit l = true ->
  seen + N.of_nat (length l) <= 4 -> val < 16 ^ seen ->
  exists n v, pton6_go (l ++ s) ct tp cp seen val = pton6_go s ct tp cp n v.
Proof.
  induction l as [|c l IH]; intros s ct tp cp seen val Hd Hl Hv; [eauto|].
  cbn [forallb] in Hd. apply andb_prop in Hd as [Hc Hd]. destruct (digit_hexdig c Hc) as (d & Hd10 & ->).
  cbn [length] in Hl. assert (Hp : 16 ^ (seen + 1) <= 16 ^ 4) by (apply N.pow_le_mono_r; [discriminate|lia]).
  rewrite N.pow_add_r in Hp. change (16 ^ 1) with 16 in Hp. change (16 ^ 4) with 65536 in Hp.
  cbn [app]. rewrite hex_step by lia.
  apply IH; [exact Hd|lia|rewrite N.pow_add_r; change (16 ^ 1) with 16; lia].
Qed.

Lemma dot_v4 : forall s ct tp cp n v a4, (length tp + 4 <= 16)%nat -> pton4 ct = Some a4 ->
  pton6_go (46 :: s) ct tp cp n v = Some (tp ++ a4, cp, 0, v).
Proof.
  intros s ct tp cp n v a4 Hl Hp. cbn [pton6_go].
  change (hexval 46) with (@None N). change (46 =? 58) with false. change (46 =? 46) with true. cbv iota.
  rewrite (proj2 (Nat.leb_le _ 16) Hl). cbn [andb]. rewrite Hp. reflexivity.
Qed.

(* "::" (colonp = 0), the stored bytes [tp], then a dotted quad to the end *)
Lemma v4_tail : forall tp v4, wf_ip 4 v4 = true -> (length tp + 4 < 16)%nat ->
  exists st, pton6_go (ntop4 v4) (ntop4 v4) tp (Some 0%nat) 0 0 = Some st /\
    pton6_finish st = Some (repeat 0 (12 - length tp) ++ tp ++ v4).
Proof.
  intros tp v4 Hwf Hl. pose proof (pton4_ntop4 v4 Hwf) as Hp.
  destruct (wf_ip4_inv v4 Hwf) as (a0 & a1 & a2 & a3 & -> & H0 & _).
  remember (ntop4 [a0; a1; a2; a3]) as ct eqn:Hct.
  change (ct = dec a0 ++ 46 :: (dec a1 ++ [46] ++ dec a2 ++ [46] ++ dec a3)) in Hct.
  destruct (digits_as_hex (dec a0) (46 :: (dec a1 ++ [46] ++ dec a2 ++ [46] ++ dec a3)) ct tp (Some 0%nat) 0 0)
    as (n & v & Hq); [apply dec_digits; lia|pose proof (proj2 (dec_length a0)); lia|reflexivity|].
  eexists. split.
  - rewrite Hct at 1. rewrite Hq. apply dot_v4; [lia|exact Hp].
  - etransitivity; [apply (finish_dc [] (tp ++ [a0; a1; a2; a3]) v)|]; rewrite app_length; cbn [length app]; [lia|].
    replace (16 - 0 - (length tp + 4))%nat with (12 - length tp)%nat by lia. reflexivity.
Qed.

Lemma pton6_emb6 : forall v4, wf_ip 4 v4 = true ->
  glibc_pton6 (58 :: 58 :: ntop4 v4) = Some (repeat 0 12 ++ v4).
Proof.
  intros v4 Hwf. unfold glibc_pton6. cbn [pton6_start N.eqb Pos.eqb]. rewrite colon_double. cbn [length].
  destruct (v4_tail [] v4 Hwf) as (st & -> & ->); [cbn [length]; lia|reflexivity].
Qed.

Lemma pton6_emb5 : forall v4, wf_ip 4 v4 = true ->
  glibc_pton6 (58 :: 58 :: hex 65535 ++ 58 :: ntop4 v4) = Some (repeat 0 10 ++ [255; 255] ++ v4).
Proof.
  intros v4 Hwf. unfold glibc_pton6. cbn [pton6_start N.eqb Pos.eqb]. rewrite colon_double. cbn [length].
  rewrite hex_group by reflexivity. change (N.of_nat (length (hex 65535))) with 4.
  rewrite colon_sep; [|discriminate| |cbn [length]; lia].
  - destruct (v4_tail [255; 255] v4 Hwf) as (st & Hgo & Hfin); [cbn [length]; lia|].
    cbn [app length] in *. change [65535 / 256; 65535 mod 256] with [255; 255]. rewrite Hgo. exact Hfin.
  - destruct (wf_ip4_inv v4 Hwf) as (a0 & a1 & a2 & a3 & -> & _). unfold ntop4.
    pose proof (proj1 (dec_length a0)). destruct (dec a0); [cbn [length] in *; lia|discriminate].
Qed.

Lemma render_outside : forall ws i best v4, (0 < i)%nat ->
  match best with Some (b, l) => (b + l <= i)%nat | None => True end ->
  render6 i ws best false v4 = cgroups ws.
Proof.
  induction ws as [|w ws IH]; intros i best v4 Hi Hb; [reflexivity|].
  cbn [render6]. rewrite andb_false_r, (proj2 (Nat.eqb_neq i 0)), IH by (lia || destruct best as [[b l]|]; lia).
  destruct best as [[b l]|]; [rewrite (proj2 (Nat.ltb_ge i (b + l)) Hb), andb_false_r|]; reflexivity.
Qed.

Lemma render_none : forall ws i v4, (0 < i)%nat -> render6 i ws None false v4 = cgroups ws.
Proof. intros ws i v4 Hi. apply render_outside; [exact Hi|exact I]. Qed.

Lemma render_inside : forall run rest i b l v4, (b < i)%nat -> (i + length run = b + l)%nat ->
  render6 i (run ++ rest) (Some (b, l)) false v4 = render6 (b + l) rest (Some (b, l)) false v4.
Proof.
  induction run as [|x run IH]; intros rest i b l v4 Hb Hl; cbn [length app] in *.
  - replace i with (b + l)%nat by lia. reflexivity.
  - cbn [render6].
    rewrite (proj2 (Nat.leb_le b i)), (proj2 (Nat.ltb_lt i (b + l))), (proj2 (Nat.eqb_neq i b)) by lia.
    apply IH; lia.
Qed.

Lemma render_run : forall run rest b l v4, (1 <= length run)%nat -> length run = l ->
  render6 b (run ++ rest) (Some (b, l)) false v4 = 58 :: cgroups rest.
Proof.
  intros [|x run] rest b l v4 H1 Hl; cbn [length] in *; [lia|].
  cbn [app render6].
  rewrite (proj2 (Nat.leb_le b b)), (proj2 (Nat.ltb_lt b (b + l))), Nat.eqb_refl by lia.
  cbn [andb app]. rewrite render_inside, render_outside by lia. reflexivity.
Qed.

Lemma render_before : forall pre rest i b l v4, (0 < i)%nat -> (i + length pre <= b)%nat ->
  render6 i (pre ++ rest) (Some (b, l)) false v4
  = cgroups pre ++ render6 (i + length pre) rest (Some (b, l)) false v4.
Proof.
  induction pre as [|w pre IH]; intros rest i b l v4 Hi Hb; cbn [length app] in *.
  - rewrite Nat.add_0_r. reflexivity.
  - cbn [render6]. rewrite (proj2 (Nat.leb_gt b i)), (proj2 (Nat.eqb_neq i 0)), andb_false_r, IH by lia.
    cbn [andb cgroups flat_map app]. rewrite <- app_assoc, <- Nat.add_succ_comm. reflexivity.
Qed.

Lemma render_shape : forall A run B l v4, (1 <= l)%nat -> length run = l ->
  render6 0 (A ++ run ++ B) (Some (length A, l)) false v4 = groups A ++ 58 :: cgroups B.
Proof.
  intros [|w A] run B l v4 H1 Hl; cbn [app length groups].
  - apply render_run; lia.
  - cbn [render6 Nat.leb andb Nat.eqb].
    rewrite (render_before A (run ++ B) 1 (S (length A)) l v4), render_run, <- app_assoc by lia. reflexivity.
Qed.

Definition run_check (ws : list N) (r : zrun) : bool :=
  match r with
  | None => true
  | Some (b, l) => (2 <=? l)%nat && (b + l <=? 8)%nat && forallb (fun w => w =? 0) (firstn l (skipn b ws))
  end.

(* Whether a word is zero is all [best_run] looks at: 256 cases. *)
Lemma best_run_check : forall ws, length ws = 8%nat -> run_check ws (best_run ws) = true.
Proof.
  intros ws H. destruct ws as [|a [|b [|c [|d [|e [|f [|g [|h [|]]]]]]]]]; try discriminate H. clear H.
  destruct a, b, c, d, e, f, g, h; vm_compute; reflexivity.
Qed.

Lemma zeros_repeat : forall l, forallb (fun w => w =? 0) l = true -> l = repeat 0 (length l).
Proof.
  induction l as [|x l IH]; intros H; [reflexivity|].
  cbn [forallb] in H. apply andb_prop in H as [Hx Hl]. apply N.eqb_eq in Hx. subst x. cbn [length repeat]. f_equal. apply IH. exact Hl.
Qed.

Lemma wbytes_app : forall a b, wbytes (a ++ b) = wbytes a ++ wbytes b.
Proof. intros. apply flat_map_app. Qed.

Lemma wbytes_repeat0 : forall n, wbytes (repeat 0 n) = repeat 0 (2 * n).
Proof.
  induction n as [|n IH]; [reflexivity|].
  replace (2 * S n)%nat with (S (S (2 * n))) by lia. cbn [repeat]. rewrite <- IH. reflexivity.
Qed.

Lemma field_ok_cons : forall c l, field_ok (c :: l) = field_char c && field_ok l.
Proof. reflexivity. Qed.

Lemma cgroups_field : forall ws, words_ok ws ->
  field_ok (cgroups ws) = true /\ (length (cgroups ws) <= 5 * length ws)%nat.
Proof.
  induction ws as [|w ws IH]; intros Hok; [split; [reflexivity|cbn [length cgroups flat_map]; lia]|].
  inversion Hok; subst. destruct (IH H2) as [Hf Hl]. destruct (hex_chars w H1) as [Hhf _].
  pose proof (hex_length w).
  change (cgroups (w :: ws)) with (58 :: hex w ++ cgroups ws).
  rewrite field_ok_cons, field_ok_app, Hhf, Hf. cbn [length]. rewrite app_length. split; [reflexivity|lia].
Qed.

Lemma groups_field : forall ws, words_ok ws ->
  field_ok (groups ws) = true /\ (length (groups ws) + 1 <= 5 * length ws + (if length ws =? 0 then 1 else 0))%nat.
Proof.
  intros [|w r] Hok; [split; reflexivity|].
  inversion Hok; subst. destruct (cgroups_field r H2) as [Hf Hl]. destruct (hex_chars w H1) as [Hhf _].
  pose proof (hex_length w).
  cbn [groups]. rewrite field_ok_app, Hhf, Hf, app_length. cbn [length Nat.eqb]. split; [reflexivity|lia].
Qed.

Definition emb_flag (best : zrun) (ws : list N) : bool :=
  match best with
  | Some (O, 6%nat) => true
  | Some (O, 5%nat) => nth 5 ws 0 =? 65535
  | _ => false
  end.

Lemma emb_flag_true : forall b l ws, emb_flag (Some (b, l)) ws = true ->
  b = 0%nat /\ (l = 6%nat \/ (l = 5%nat /\ nth 5 ws 0 = 65535)).
Proof.
  intros [|b] l ws H; [|discriminate]. split; [reflexivity|].
  destruct l as [|[|[|[|[|[|[|l]]]]]]]; try discriminate; [right|left; reflexivity].
  split; [reflexivity|]. apply N.eqb_eq. exact H.
Qed.

(* the four forms inet_ntop6 produces, with what they stand for *)
Inductive shape (ws : list N) (v4 : bytes) (text : bytes) : Prop :=
| ShPlain : text = groups ws -> shape ws v4 text
| ShRun (A B : list N) :
    text = groups A ++ 58 :: 58 :: groups B -> (length A + length B <= 6)%nat ->
    words_ok A -> words_ok B ->
    wbytes ws = wbytes A ++ repeat 0 (16 - 2 * length A - 2 * length B) ++ wbytes B -> shape ws v4 text
| ShEmb6 : text = 58 :: 58 :: ntop4 v4 -> wbytes ws = repeat 0 12 ++ v4 -> shape ws v4 text
| ShEmb5 : text = 58 :: 58 :: hex 65535 ++ 58 :: ntop4 v4 -> wbytes ws = repeat 0 10 ++ [255; 255] ++ v4 -> shape ws v4 text.

Lemma ntop6w_shape : forall ws, length ws = 8%nat -> words_ok ws ->
  shape ws (wbytes (skipn 6 ws)) (ntop6w ws (wbytes (skipn 6 ws))).
Proof.
  intros ws Hl8 Hok. pose proof (best_run_check ws Hl8) as Hc.
  set (v4 := wbytes (skipn 6 ws)).
  change (ntop6w ws v4) with
    (render6 0 ws (best_run ws) (emb_flag (best_run ws) ws) v4
     ++ match best_run ws with Some (b, l) => if (b + l =? 8)%nat then [58] else [] | None => [] end).
  destruct (best_run ws) as [[b l]|].
  2:{ apply ShPlain. cbn [emb_flag]. do 9 (destruct ws as [|? ws]; try discriminate). apply app_nil_r. }
  cbn [run_check] in Hc. apply andb_prop in Hc as [Hc Hz]. apply andb_prop in Hc as [Hl2 Hbl].
  apply Nat.leb_le in Hl2, Hbl.
  destruct (emb_flag (Some (b, l)) ws) eqn:Ef.
  - (* "::a.b.c.d" and "::ffff:a.b.c.d" *)
    do 9 (destruct ws as [|? ws]; try discriminate).
    apply zeros_repeat in Hz. unfold firstn, skipn in Hz.
    destruct (emb_flag_true _ _ _ Ef) as [-> [-> | [-> Hw5]]]; cbn [length repeat nth] in *.
    + injection Hz as -> -> -> -> -> ->. apply ShEmb6; [etransitivity; [apply app_nil_r|]|]; reflexivity.
    + injection Hz as -> -> -> -> ->. subst. apply ShEmb5; [etransitivity; [apply app_nil_r|]|]; reflexivity.
  - set (A := firstn b ws). set (run := firstn l (skipn b ws)). set (B := skipn l (skipn b ws)).
    assert (Hws : ws = A ++ run ++ B) by (unfold A, run, B; rewrite !firstn_skipn; reflexivity).
    assert (HlA : length A = b) by (apply firstn_length_le; lia).
    assert (Hlr : length run = l) by (apply firstn_length_le; rewrite skipn_length; lia).
    assert (HlB : (length B = 8 - b - l)%nat) by (unfold B; rewrite !skipn_length; lia).
    assert (Hrun : run = repeat 0 l) by (rewrite <- Hlr; apply zeros_repeat; exact Hz).
    unfold words_ok in *. rewrite Hws in Hok. apply Forall_app in Hok as [HokA Hr]. apply Forall_app in Hr as [_ HokB].
    apply (ShRun _ _ _ A B); try assumption; [|lia|].
    + rewrite Hws at 1. rewrite <- HlA, render_shape, HlA by lia. destruct B as [|wb rb]; cbn [length] in HlB.
      * rewrite (proj2 (Nat.eqb_eq (b + l) 8)) by lia. rewrite <- app_assoc. reflexivity.
      * rewrite (proj2 (Nat.eqb_neq (b + l) 8)) by lia. apply app_nil_r.
    + rewrite Hws at 1. rewrite !wbytes_app, Hrun, wbytes_repeat0.
      replace (16 - 2 * length A - 2 * length B)%nat with (2 * l)%nat by lia. reflexivity.
Qed.

Lemma shape_ok : forall ws v4 text,
  length ws = 8%nat -> words_ok ws -> wf_ip 4 v4 = true -> shape ws v4 text ->
  glibc_pton6 text = Some (wbytes ws) /\ field_ok text = true /\ (length text <= 39)%nat.
Proof.
  intros ws v4 text Hl Hok Hv4 [Ht | A B Ht HAB HA HB Hw | Ht Hw | Ht Hw]; subst text; rewrite Hw || idtac.
  - destruct ws as [|w r]; [discriminate|]. cbn [length] in Hl.
    split; [apply pton6_plain; [lia|exact Hok]|].
    destruct (groups_field (w :: r) Hok) as [Hf Hlen]. split; [exact Hf|].
    cbn [length] in Hlen. replace (length r) with 7%nat in Hlen by lia. cbn [Nat.eqb] in Hlen. lia.
  - split; [apply pton6_dc; (assumption || lia)|].
    destruct (groups_field A HA) as [HfA HlA]. destruct (groups_field B HB) as [HfB HlB].
    rewrite field_ok_app, !field_ok_cons, HfA, HfB, app_length. cbn [length]. split; [reflexivity|].
    destruct (length A =? 0)%nat, (length B =? 0)%nat; lia.
  - destruct (ntop4_field v4 Hv4) as [Hf Hlen].
    split; [apply pton6_emb6, Hv4|]. rewrite !field_ok_cons, Hf. cbn [length]. split; [reflexivity|lia].
  - destruct (ntop4_field v4 Hv4) as [Hf Hlen].
    split; [apply pton6_emb5, Hv4|].
    rewrite !field_ok_cons, field_ok_app, field_ok_cons, Hf. cbn [length]. rewrite app_length. cbn [length].
    split; [reflexivity|]. change (length (hex 65535)) with 4%nat. lia.
Qed.

Lemma words_of_bytes : forall n a, length a = (2 * n)%nat -> Forall (fun b => b < 256) a ->
  wbytes (words_of a) = a /\ words_ok (words_of a) /\ length (words_of a) = n.
Proof.
  induction n as [|n IH]; intros [|hi [|lo a]] Hl Hb; try (cbn [length] in Hl; lia);
    [repeat split; apply Forall_nil|].
  apply Forall_cons_iff in Hb as [Hhi Hb]. apply Forall_cons_iff in Hb as [Hlo Hb].
  destruct (IH a) as (Hw & Hok & Hlen); [cbn [length] in Hl; lia|exact Hb|].
  change (words_of (hi :: lo :: a)) with ((hi * 256 + lo) :: words_of a).
  change (wbytes ((hi * 256 + lo) :: words_of a))
    with ((hi * 256 + lo) / 256 :: (hi * 256 + lo) mod 256 :: wbytes (words_of a)).
  rewrite digits_div, digits_mod, Hw by exact Hlo. cbn [length]. rewrite Hlen. repeat split. constructor; [lia|exact Hok].
Qed.

Lemma skipn_wbytes : forall k ws, skipn (2 * k) (wbytes ws) = wbytes (skipn k ws).
Proof.
  induction k as [|k IH]; intros [|w ws]; try reflexivity.
  replace (2 * S k)%nat with (S (S (2 * k))) by lia. apply IH.
Qed.

Lemma wbytes_bytes : forall ws, words_ok ws -> forallb is_byte (wbytes ws) = true.
Proof.
  induction 1 as [|w ws Hw _ IH]; [reflexivity|].
  change (wbytes (w :: ws)) with (w / 256 :: w mod 256 :: wbytes ws). cbn [forallb]. rewrite IH.
  destruct (digits_lt 256 256 w Hw) as [Hq Hr]. unfold is_byte.
  rewrite (proj2 (N.ltb_lt _ _) Hq), (proj2 (N.ltb_lt _ _) Hr). reflexivity.
Qed.

Lemma glibc_ip6_oracle : ip6_oracle glibc_pton6 glibc_ntop6.
Proof.
  intros a Hwf. destruct (wf_ip_inv 16 a Hwf) as [Hl Hb].
  destruct (words_of_bytes 8 a Hl Hb) as (Ha & Hok & Hl8).
  unfold glibc_ntop6. set (ws := words_of a) in *.
  rewrite <- Ha. change 12%nat with (2 * 6)%nat. rewrite skipn_wbytes.
  apply (shape_ok ws (wbytes (skipn 6 ws))); [exact Hl8|exact Hok| |apply ntop6w_shape; assumption].
  apply andb_true_iff. split.
  - rewrite wbytes_length, skipn_length, Hl8. reflexivity.
  - apply wbytes_bytes. unfold words_ok in *. rewrite <- (firstn_skipn 6 ws) in Hok.
    apply Forall_app in Hok. apply Hok.
Qed.

(* the hypothesis of the exactness theorems is satisfiable - by the very
   functions the extracted model runs *)
Example ip6_oracle_satisfiable : ip6_oracle glibc_pton6 glibc_ntop6.
Proof. exact glibc_ip6_oracle. Qed.

Lemma run_p_fill : forall fuel target read k s,
  run_proc (p_fill fuel target read k) s
  = let '(r, s1) := read_fill fuel target read s in run_proc (k r) s1.
Proof.
  induction fuel as [|f IH]; intros target read k s; cbn [p_fill read_fill];
    (destruct (target <=? length read)%nat; [reflexivity|]); [reflexivity|].
  cbn [run_proc]. destruct (recv_into s (target - length read)) as [[|c chunk] s']; [reflexivity|apply IH].
Qed.

Lemma run_p_line_loop : forall fuel read k s,
  run_proc (p_line_loop fuel read k) s
  = let '(r, s1) := read_line_loop fuel read s in run_proc (k r) s1.
Proof.
  induction fuel as [|f IH]; intros read k s; cbn [p_line_loop read_line_loop];
    (destruct (107 <=? length read)%nat; [reflexivity|]); [reflexivity|].
  cbn [run_proc].
  destruct (recv_into s (Nat.min (107 - length read) (if ends_cr read then 1 else 2))) as [[|c chunk] s'];
    [reflexivity|].
  destruct (ends_crlf (read ++ c :: chunk)); [reflexivity|apply IH].
Qed.

Lemma run_p_read_pp_line : forall initial k s,
  run_proc (p_read_pp_line initial k) s
  = let '(r, s1) := read_pp_line initial s in run_proc (k r) s1.
Proof.
  intros initial k s. unfold p_read_pp_line, read_pp_line. rewrite run_p_fill.
  destruct (read_fill 8 8 initial s) as [[read|e|] s1]; [apply run_p_line_loop|reflexivity..].
Qed.

Lemma run_h_lift : forall p k h s,
  run_h (lift p k) h s = let '(r, s1) := run_proc p s in run_h (k r) h s1.
Proof.
  induction p as [r|n f IH]; intros k h s; [reflexivity|].
  cbn [lift run_h run_proc]. destruct (recv_into s n) as [chunk s']. apply IH.
Qed.

Lemma run_h_call_once : forall a h s,
  run_h (call_once a) h s = let '(o, s2) := h a s in (end_of o, s2, [(a, s)]).
Proof. intros a h s. unfold call_once. cbn [run_h]. destruct (h a s) as [o s2]. reflexivity. Qed.

Section Refines.
  Variable pton6 : bytes -> option bytes.
  Variable ntop6 : bytes -> bytes.

  Lemma run_p_process_v1 : forall initial s,
    run_proc (p_process_v1 pton6 ntop6 initial) s = process_pp_v1 pton6 ntop6 initial s.
  Proof.
    intros initial s. unfold p_process_v1, process_pp_v1. rewrite run_p_read_pp_line.
    destruct (read_pp_line initial s) as [[line|e|] s1]; reflexivity.
  Qed.

  Lemma run_p_process_v2 : forall initial s,
    run_proc (p_process_v2 ntop6 initial) s = process_pp_v2 ntop6 initial s.
  Proof.
    intros initial s. unfold p_process_v2, process_pp_v2, read_pp_data. rewrite run_p_fill.
    destruct (read_fill 16 16 initial s) as [[data|[]|] s1]; try reflexivity.
    destruct (parse_pp_data data) as [[[[cmd fam] proto] addr_len]|[]|]; try reflexivity.
    rewrite run_p_fill.
    destruct (read_fill addr_len addr_len [] s1) as [[addr_data|[]|] s2]; try reflexivity.
    cbn [run_proc]. destruct (parse_pp_addresses ntop6 fam addr_data) as [ret|[]|]; try reflexivity.
    destruct cmd; reflexivity.
  Qed.

  Lemma run_p_process_auto : forall s,
    run_proc (p_process_auto pton6 ntop6) s = process_auto pton6 ntop6 s.
  Proof.
    intros s. unfold p_process_auto, process_auto. rewrite run_p_fill.
    destruct (read_fill 8 8 [] s) as [[initial|e|] s1]; [|reflexivity..].
    destruct (starts_with PROXY_SP initial); [apply run_p_process_v1|].
    destruct (beqb initial SIG8); [apply run_p_process_v2|reflexivity].
  Qed.

  Variable h : handler.

  Lemma handle_v1_once : forall s,
    run_h (p_handle_v1 pton6 ntop6) h s = after_parse h (handle_v1 pton6 ntop6 s).
  Proof.
    intros s. unfold p_handle_v1, handle_v1. rewrite run_h_lift, run_p_process_v1.
    destruct (process_pp_v1 pton6 ntop6 [] s) as [[[src dst]|[]|] s1]; try reflexivity; apply run_h_call_once.
  Qed.

  Lemma finish_once : forall r s1,
    run_h (p_finish r) h s1 = after_parse h (finish (r, s1)).
  Proof. intros [[src dst]|[]|] s1; try reflexivity; apply run_h_call_once. Qed.

  Lemma handle_v2_once : forall s,
    run_h (p_handle_v2 ntop6) h s = after_parse h (handle_v2 ntop6 s).
  Proof.
    intros s. unfold p_handle_v2, handle_v2. rewrite run_h_lift, run_p_process_v2.
    destruct (process_pp_v2 ntop6 [] s) as [r s1]. apply finish_once.
  Qed.

  Lemma handle_auto_once : forall s,
    run_h (p_handle_auto pton6 ntop6) h s = after_parse h (handle_auto pton6 ntop6 s).
  Proof.
    intros s. unfold p_handle_auto, handle_auto. rewrite run_h_lift, run_p_process_auto.
    destruct (process_auto pton6 ntop6 s) as [r s1]. apply finish_once.
  Qed.
End Refines.

Fixpoint iter_step (n : nat) (c : conn) : conn :=
  match n with O => c | S n' => iter_step n' (step_conn c) end.

Definition count_pick (i : nat) (picks : list nat) : nat := count_occ Nat.eq_dec picks i.

Lemma step_nth_length : forall cs i, length (step_nth i cs) = length cs.
Proof.
  induction cs as [|c cs IH]; intros [|i]; cbn [step_nth length]; try reflexivity. rewrite IH. reflexivity.
Qed.

Lemma step_nth_nth : forall cs i j d, (j < length cs)%nat ->
  nth j (step_nth i cs) d = if Nat.eq_dec i j then step_conn (nth j cs d) else nth j cs d.
Proof.
  induction cs as [|c cs IH]; intros [|i] [|j] d H; cbn [length] in H; try lia; try reflexivity.
  cbn [step_nth nth]. rewrite IH by lia. destruct (Nat.eq_dec i j), (Nat.eq_dec (S i) (S j)); (reflexivity || lia).
Qed.

Lemma run_conns_nth : forall picks cs j d, (j < length cs)%nat ->
  nth j (run_conns picks cs) d = iter_step (count_pick j picks) (nth j cs d).
Proof.
  induction picks as [|i picks IH]; intros cs j d Hj; [reflexivity|].
  cbn [run_conns]. rewrite IH, step_nth_nth by (rewrite ?step_nth_length; exact Hj).
  unfold count_pick. cbn [count_occ]. destruct (Nat.eq_dec i j); reflexivity.
Qed.

Lemma conn_alone : forall picks cs j c, nth_error cs j = Some c ->
  nth j (run_conns picks cs) c = iter_step (count_pick j picks) c.
Proof.
  intros picks cs j c Hj. rewrite run_conns_nth by (apply nth_error_Some; congruence).
  rewrite (nth_error_nth cs j c Hj). reflexivity.
Qed.

Lemma iter_step_done : forall n p s r s', iter_step n (p, s) = (PDone r, s') -> run_proc p s = (r, s').
Proof.
  induction n as [|n IH]; intros p s r s' H; cbn [iter_step] in H.
  - inversion H. reflexivity.
  - destruct p as [r0|m k]; unfold step_conn in H; cbn [fst snd] in H; [exact (IH _ _ _ _ H)|].
    cbn [run_proc]. destruct (recv_into s m) as [chunk s1]. exact (IH _ _ _ _ H).
Qed.

(* with C18_total: exactly one call, with the parser's address, on the socket
   as the parser left it, and handle() ends as the wrapped handler ended;
   no call (and a normal return) exactly for LOCAL *)
Definition called_once (h : handler) (x : hres * sock) (out : hend * sock * list (addr * sock)) : Prop :=
  match handler_arg (fst x) with
  | Some a => snd out = [(a, snd x)] /\ (fst (fst out), snd (fst out)) = (end_of (fst (h a (snd x))), snd (h a (snd x)))
  | None => fst x = HLocal /\ out = (HReturned, snd x, [])
  end.

Lemma after_parse_once : forall h x, settled (fst x) -> called_once h x (after_parse h x).
Proof.
  intros h [[a|w| |e|] s1] Hs; unfold called_once; cbn [fst snd handler_arg after_parse settled] in *;
    try contradiction; [destruct (h a s1)|destruct (h ANone s1)|]; split; reflexivity.
Qed.
