(* Proofs for C19 (model/Pool.v): the deque's semaphore, the pool's invariant over all schedules and
   the accounting of attempts under the client contract, the wire logs of the SMTP and HTTP clients,
   the source of the reply in a lost-connection result. *)
From Coq Require Import List NArith Bool Lia Permutation.
From SV Require Import lib.Sched model.Pool proof.List_lemmas.
Import ListNotations.
Open Scope N_scope.

Lemma nlen_cons : forall A (x : A) l, nlen (x :: l) = nlen l + 1.
Proof. intros. unfold nlen. cbn [length]. lia. Qed.

Lemma nlen_app : forall A (a b : list A), nlen (a ++ b) = nlen a + nlen b.
Proof. intros. unfold nlen. rewrite app_length. lia. Qed.

Lemma nlen_zero : forall A (l : list A), nlen l = 0 -> l = [].
Proof. intros A [|x l] H; [reflexivity|]. rewrite nlen_cons in H. lia. Qed.

Lemma nlen_map : forall A B (f : A -> B) l, nlen (map f l) = nlen l.
Proof. intros. unfold nlen. rewrite map_length. reflexivity. Qed.

Definition dq_ok {A} (d : dq A) : Prop := cnt d = nlen (items d).

Lemma dq_ok_append : forall A x (d : dq A), dq_ok d -> dq_ok (dq_append x d).
Proof. unfold dq_ok. intros A x d H. cbn. rewrite nlen_app, H. reflexivity. Qed.

Lemma dq_ok_appendleft : forall A x (d : dq A), dq_ok d -> dq_ok (dq_appendleft x d).
Proof. unfold dq_ok. intros A x d H. cbn [dq_appendleft items cnt]. rewrite nlen_cons, H. reflexivity. Qed.

Lemma dq_ok_extend : forall A xs (d : dq A), dq_ok d -> dq_ok (dq_extend xs d).
Proof. unfold dq_ok. intros A xs d H. cbn. rewrite nlen_app, H. lia. Qed.

Lemma dq_ok_extendleft : forall A xs (d : dq A), dq_ok d -> dq_ok (dq_extendleft xs d).
Proof. unfold dq_ok. intros A xs d H. cbn. rewrite nlen_app, H. lia. Qed.

Lemma popleft_ok : forall A (d : dq A), dq_ok d ->
    match dq_popleft d with
    | PopBlock => items d = []
    | PopIndexError _ => False
    | PopOk x d' => items d = x :: items d' /\ dq_ok d'
    end.
Proof.
  unfold dq_ok, dq_popleft. intros A [it c] H. cbn [items cnt] in *. subst c.
  destruct (N.eqb_spec (nlen it) 0) as [E0|E0]; [exact (nlen_zero _ _ E0)|].
  destruct it as [|x l]; [exact (E0 eq_refl)|]. split; [reflexivity|]. cbn [items cnt]. rewrite nlen_cons. lia.
Qed.

Lemma pop_ok : forall A (d : dq A), dq_ok d ->
    match dq_pop d with
    | PopBlock => True
    | PopIndexError _ => False
    | PopOk _ d' => dq_ok d'
    end.
Proof.
  unfold dq_ok, dq_pop. intros A [it c] H. cbn [items cnt] in *. subst c.
  assert (El : nlen it = nlen (rev it)) by (unfold nlen; rewrite rev_length; reflexivity).
  destruct (N.eqb_spec (nlen it) 0) as [E0|E0]; [exact I|].
  destruct (rev it) as [|x l]; [exact (E0 El)|].
  cbn [items cnt]. unfold nlen in *. rewrite rev_length. cbn [length] in El. lia.
Qed.

Lemma remove_first_len : forall A (eqA : A -> A -> bool) x l l',
    remove_first A eqA x l = Some l' -> nlen l = nlen l' + 1.
Proof.
  intros A eqA x. induction l as [|y l IH]; intros l' H; cbn in H; [discriminate|].
  destruct (eqA x y).
  - inversion H; subst. apply nlen_cons.
  - destruct (remove_first A eqA x l) eqn:E; [|discriminate]. inversion H; subst.
    rewrite !nlen_cons, (IH l0 eq_refl). reflexivity.
Qed.

Lemma out_of_pop_ok : forall d r,
    match r with PopBlock => True | PopIndexError _ => False | PopOk _ d' => dq_ok d' end -> dq_ok d ->
    dq_ok (fst (out_of_pop d r)) /\ out_is_bad (snd (out_of_pop d r)) = false.
Proof. intros d [|d'|x d'] Hr Hd; [split; [exact Hd | reflexivity] | contradiction | split; [exact Hr | reflexivity]]. Qed.

Lemma dq_apply_ok : forall d o, dq_ok d ->
    dq_ok (fst (dq_apply d o)) /\ out_is_bad (snd (dq_apply d o)) = false.
Proof.
  intros d o H. destruct o; cbn [dq_apply fst snd].
  - split; [apply dq_ok_append, H | reflexivity].
  - split; [apply dq_ok_appendleft, H | reflexivity].
  - split; reflexivity.
  - split; [apply dq_ok_extend, H | reflexivity].
  - split; [apply dq_ok_extendleft, H | reflexivity].
  - apply out_of_pop_ok; [apply pop_ok, H | exact H].
  - apply out_of_pop_ok; [|exact H]. pose proof (popleft_ok _ d H) as P. destruct (dq_popleft d); tauto.
  - (* remove takes the item first, the semaphore second: the counter is positive when an item was there *)
    unfold dq_remove. destruct (remove_first N N.eqb x (items d)) eqn:Er; [|split; [exact H | reflexivity]].
    apply remove_first_len in Er. unfold dq_ok in *.
    destruct (N.eqb_spec (cnt d) 0); cbn [fst snd items cnt]; [lia | split; [lia | reflexivity]].
Qed.

Definition dq_run_ok (acc : dq N * list dq_out) : Prop :=
  dq_ok (fst acc) /\ forallb (fun r => negb (out_is_bad r)) (snd acc) = true.

Lemma dq_run_ok_gen : forall ops acc, dq_run_ok acc -> dq_run_ok (fold_left dq_run_step ops acc).
Proof.
  intros ops. apply fold_left_inv. intros [d outs] o [Hd Ho]. unfold dq_run_ok, dq_run_step. cbn [fst snd] in *.
  destruct (dq_apply_ok d o Hd) as [H1 H2]. destruct (dq_apply d o) as [d' r].
  cbn [fst snd forallb] in *. rewrite H2. exact (conj H1 Ho).
Qed.

Example deque_sema_example :
  dq_run [1; 2] [OAppend 5; OPopLeft; OExtendLeft [7; 8]; ORemove 2; OPop; OClear; OPop]
  = (mkDq [] 0, [RBlocked; RNone; RItem 5; RNone; RNone; RItem 1; RNone]).
Proof. vm_compute. reflexivity. Qed.

Definition fresh_below (n : N) (l : list N) : Prop := NoDup l /\ forall x, In x l -> x < n.

Lemma fresh_snoc : forall n l, fresh_below n l -> fresh_below (n + 1) (l ++ [n]).
Proof.
  intros n l [ND Hlt]. split.
  - apply NoDup_snoc; [exact ND|]. intros HI. apply Hlt in HI. lia.
  - intros x HI. apply in_app_or in HI. destruct HI as [HI | [<- | []]]; [apply Hlt in HI|]; lia.
Qed.

Lemma fresh_inj : forall A (f : A -> N) n l a b,
    fresh_below n (map f l) -> In a l -> In b l -> f a = f b -> a = b.
Proof.
  intros A f n l a b [ND _]. induction l as [|x l IH]; intros Ha Hb E; [destruct Ha|].
  cbn in ND. inversion ND as [|? ? Hn ND']; subst.
  destruct Ha as [<- | Ha], Hb as [<- | Hb].
  - reflexivity.
  - exfalso. apply Hn. rewrite E. apply in_map. exact Hb.
  - exfalso. apply Hn. rewrite <- E. apply in_map. exact Ha.
  - apply IH; assumption.
Qed.

Lemma set_cst_ids : forall c st p, map c_id (set_cst c st p) = map c_id p.
Proof.
  intros c st. induction p as [|cl p IH]; cbn; [reflexivity|].
  destruct (N.eqb_spec (c_id cl) c) as [E|E]; cbn; [rewrite E | rewrite IH]; reflexivity.
Qed.

Lemma set_cst_nlen : forall c st p, nlen (set_cst c st p) = nlen p.
Proof. intros. rewrite <- (nlen_map _ _ c_id), set_cst_ids. apply nlen_map. Qed.

Lemma set_cst_In : forall c st p cl, In cl (set_cst c st p) -> In cl p \/ cl = mkClient c st.
Proof.
  intros c st. induction p as [|x p IH]; intros cl H; cbn in H; [destruct H|].
  destruct (c_id x =? c).
  - destruct H as [<- | H]; [right; reflexivity | left; right; exact H].
  - destruct H as [<- | H]; [left; left; reflexivity|].
    destruct (IH cl H) as [H1 | H1]; [left; right; exact H1 | right; exact H1].
Qed.

(* [cst_of c s], on the client list *)
Definition cst (c : N) (p : list client) : option cstate := option_map c_st (find_client c p).

Lemma cst_In : forall c p st, cst c p = Some st -> In (mkClient c st) p.
Proof.
  intros c. induction p as [|x p IH]; intros st H; [discriminate|].
  unfold cst in *. cbn in H. destruct (N.eqb_spec (c_id x) c) as [E|E]; [|right; exact (IH _ H)].
  left. destruct x. cbn in *. congruence.
Qed.

Lemma cst_NoDup : forall p cl, NoDup (map c_id p) -> In cl p -> cst (c_id cl) p = Some (c_st cl).
Proof.
  unfold cst. induction p as [|x p IH]; intros cl ND HI; [destruct HI|].
  cbn. cbn in ND. inversion ND as [|? ? Hn ND']; subst.
  destruct HI as [-> | HI]; [rewrite N.eqb_refl; reflexivity|].
  destruct (N.eqb_spec (c_id x) (c_id cl)) as [E|E]; [|apply IH; assumption].
  exfalso. apply Hn. rewrite E. apply in_map. exact HI.
Qed.

Lemma cst_of_nonempty : forall c s st, cst_of c s = Some st -> pool s <> [].
Proof. intros c s st H Hn. apply cst_In in H. rewrite Hn in H. exact H. Qed.

Lemma del_client_ids_incl : forall c p x, In x (map c_id (del_client c p)) -> In x (map c_id p).
Proof.
  intros c. induction p as [|y p IH]; intros x H; cbn in *; [exact H|].
  destruct (c_id y =? c); [right; exact H|].
  destruct H as [<- | H]; [left; reflexivity | right; apply IH; exact H].
Qed.

Lemma del_client_fresh : forall c n p, fresh_below n (map c_id p) -> fresh_below n (map c_id (del_client c p)).
Proof.
  intros c n p [ND Hlt]. split; [|intros x HI; apply Hlt, (del_client_ids_incl c), HI].
  clear Hlt. induction p as [|y p IH]; cbn in *; [exact ND|].
  inversion ND as [|? ? Hn ND']; subst.
  destruct (c_id y =? c); [exact ND'|].
  cbn. constructor; [intros HI; apply Hn, (del_client_ids_incl c), HI | apply IH, ND'].
Qed.

Lemma del_client_nlen : forall c p, nlen (del_client c p) <= nlen p.
Proof.
  intros c. induction p as [|x p IH]; cbn [del_client]; [lia|].
  destruct (c_id x =? c); rewrite ?nlen_cons; lia.
Qed.

Lemma inflight_set_cst : forall c st st' p, cst c p = Some st ->
    Permutation (req_of st ++ inflight (set_cst c st' p)) (req_of st' ++ inflight p).
Proof.
  unfold cst, inflight. intros c st st'. induction p as [|x p IH]; intros H; cbn in H; [discriminate|].
  cbn [set_cst]. destruct (c_id x =? c); cbn [flat_map c_st].
  - injection H as <-. apply Permutation_app_swap_app.
  - rewrite Permutation_app_swap_app, (IH H). apply Permutation_app_swap_app.
Qed.

Lemma inflight_del_client : forall c st p, cst c p = Some st -> req_of st = [] ->
    inflight (del_client c p) = inflight p.
Proof.
  unfold cst, inflight. intros c st. induction p as [|x p IH]; intros H Hr; cbn in H; [discriminate|].
  cbn [del_client]. destruct (c_id x =? c); cbn [flat_map].
  - injection H as <-. rewrite Hr. reflexivity.
  - rewrite (IH H Hr). reflexivity.
Qed.

(* the invariant that needs no assumption on the clients *)
Record Inv0 (cfg : config) (s : pstate) : Prop := mkInv0 {
  inv_sema : dq_ok (q s);
  inv_nocrash : crashed s = false;
  inv_ids : fresh_below (next_cid s) (map c_id (pool s));
  inv_bound : size cfg <> 0 -> nlen (pool s) <= size cfg;
  inv_slots : fresh_below (next_slot s) (map r_slot (attempts s))
}.

Definition Inv (cfg : config) (s : pstate) : Prop :=
  Inv0 cfg s /\ (items (q s) <> [] -> pool s <> []).

Lemma inv_init : forall cfg, Inv cfg init_state.
Proof.
  intros cfg. split; [|intros H; contradiction H; reflexivity].
  constructor; cbn; try reflexivity; try (split; [constructor | intros x []]). intros _. apply N.le_0_l.
Qed.

Lemma inv_same : forall cfg s s',
    Inv cfg s -> map c_id (pool s') = map c_id (pool s) -> q s' = q s -> crashed s' = crashed s ->
    next_cid s' = next_cid s -> next_slot s' = next_slot s -> attempts s' = attempts s -> Inv cfg s'.
Proof.
  intros cfg s s' [[] Hsv] Hp Hq Hc Hn Hs Ha.
  assert (Hl : nlen (pool s') = nlen (pool s)) by (rewrite <- (nlen_map _ _ c_id), Hp; apply nlen_map).
  split; [constructor; rewrite ?Hq, ?Hc, ?Hp, ?Hn, ?Hs, ?Ha, ?Hl; assumption|].
  rewrite Hq. intros H1 H2. rewrite H2 in Hp. symmetry in Hp. apply map_eq_nil in Hp. exact (Hsv H1 Hp).
Qed.

Lemma to_state_inv : forall cfg c st s, Inv cfg s -> Inv cfg (to_state c st s).
Proof. intros cfg c st s I. apply (inv_same cfg s); [exact I | apply set_cst_ids | reflexivity ..]. Qed.

Lemma inv_set_q : forall cfg s d,
    Inv cfg s -> dq_ok d -> (items d <> [] -> pool s <> []) -> Inv cfg (set_q d s).
Proof. intros cfg s d [[] _] H1 H2. split; [constructor; assumption | exact H2]. Qed.

Lemma add_client_inv : forall cfg s,
    Inv0 cfg s -> (size cfg <> 0 -> nlen (pool s) < size cfg) -> Inv cfg (add_client s).
Proof.
  intros cfg s [] Hb. split; [constructor; cbn [add_client pool q crashed next_cid next_slot attempts]; try assumption|].
  - rewrite map_app. apply fresh_snoc. assumption.
  - intros Hs. rewrite nlen_app. specialize (Hb Hs). change (nlen [_]) with 1. lia.
  - intros _. cbn. intros H. apply app_eq_nil in H. destruct H as [_ H]. discriminate H.
Qed.

Lemma check_idle_cases : forall cfg s,
    check_idle cfg s = s /\ pool s <> [] \/
    check_idle cfg s = add_client s /\ (size cfg <> 0 -> nlen (pool s) < size cfg).
Proof.
  intros cfg s. unfold check_idle.
  destruct (existsb is_polling (pool s)) eqn:E1; [left; split; [reflexivity | intros Hp; rewrite Hp in E1; discriminate]|].
  destruct (N.eqb_spec (size cfg) 0) as [E2|E2]; cbn [orb]; [right; split; [reflexivity | contradiction]|].
  destruct (N.ltb_spec (nlen (pool s)) (size cfg)) as [E3|E3]; [right; split; [reflexivity | intros _; exact E3]|].
  left. split; [reflexivity|]. intros Hp. rewrite Hp in E3. cbn in E3. lia.
Qed.

Lemma remove_client_cases : forall c s,
    let s1 := set_pool (del_client c (pool s)) s in
    remove_client c s = add_client s1 /\ pool s1 = [] \/
    remove_client c s = s1 /\ (items (q s) <> [] -> pool s1 <> []).
Proof.
  intros c s. unfold remove_client. cbn [set_pool pool q].
  destruct (del_client c (pool s)) as [|x p].
  - destruct (items (q s)); [right | left]; split; try reflexivity. intros H; contradiction H; reflexivity.
  - rewrite andb_false_r. right. split; [reflexivity | discriminate].
Qed.

Lemma do_attempt_inv : forall cfg env s, Inv cfg s -> Inv cfg (do_attempt cfg env s).
Proof.
  intros cfg env s I.
  assert (I1 : Inv cfg (check_idle cfg s) /\ pool (check_idle cfg s) <> []).
  { destruct (check_idle_cases cfg s) as [[-> Hne] | [-> Hb]]; [split; assumption|].
    split; [apply add_client_inv; [apply I | exact Hb] | cbn; intros H; apply app_eq_nil in H; destruct H as [_ H]; discriminate H]. }
  destruct I1 as [[[] _] Hne]. unfold do_attempt.
  split; [constructor; cbn [pool q crashed next_cid next_slot attempts]; try assumption | intros _; exact Hne].
  - apply dq_ok_append. assumption.
  - rewrite map_app. apply fresh_snoc. assumption.
Qed.

Lemma remove_client_inv : forall cfg c s, Inv cfg s -> Inv cfg (remove_client c s).
Proof.
  intros cfg c s [[] Hsv].
  assert (I1 : Inv0 cfg (set_pool (del_client c (pool s)) s)).
  { constructor; cbn [set_pool pool q crashed next_cid next_slot attempts]; try assumption.
    - apply del_client_fresh. assumption.
    - intros Hs. pose proof (del_client_nlen c (pool s)). specialize (inv_bound0 Hs). lia. }
  destruct (remove_client_cases c s) as [[-> Hp] | [-> Hp]]; [|split; [exact I1 | exact Hp]].
  apply add_client_inv; [exact I1|]. rewrite Hp. intros Hs. cbn. lia.
Qed.

Lemma poll_inv : forall cfg c st w s, Inv cfg s -> Inv cfg (set_waiters w (to_state c st s)).
Proof. intros cfg c st w s I. apply (inv_same cfg (to_state c st s)); [apply to_state_inv, I | reflexivity ..]. Qed.

Lemma pstep_inv : forall cfg s e s', Inv cfg s -> pstep cfg s e = Some s' -> Inv cfg s'.
Proof.
  intros cfg s e s' I H. destruct e; cbn [pstep] in H;
    try (destruct (cst_of c s) as [[| dl | r |]|] eqn:E; try discriminate).
  - injection H as <-. apply do_attempt_inv, I.
  - injection H as <-. apply (inv_same cfg s); [exact I | reflexivity ..].
  - injection H as <-. apply poll_inv, I.
  - injection H as <-. apply to_state_inv, I.
  - pose proof (popleft_ok _ (q s) (inv_sema _ _ (proj1 I))) as P.
    destruct (dq_popleft (q s)) as [|d|r d]; [discriminate | contradiction |].
    injection H as <-. destruct P as [_ P].
    change (Inv cfg (leave_poll c (Delivering r) (set_q d s))).
    apply poll_inv, inv_set_q; [exact I | exact P | intros _; exact (cst_of_nonempty _ _ _ E)].
  - destruct dl as [dl|]; [|discriminate]. destruct (dl <=? now s); [|discriminate].
    injection H as <-. apply poll_inv, I.
  - injection H as <-. apply to_state_inv. apply (inv_same cfg s); [exact I | reflexivity ..].
  - injection H as <-. apply to_state_inv, inv_set_q; [exact I | apply dq_ok_appendleft, I | intros _; exact (cst_of_nonempty _ _ _ E)].
  - injection H as <-. apply to_state_inv, I.
  - injection H as <-. apply remove_client_inv, I.
Qed.

Lemma inv_all_schedules : forall cfg (es : list pevent), Inv cfg (run (S := pool_sys cfg) es).
Proof. intros cfg es. apply (inv_run (pool_sys cfg) (Inv cfg) (pstep_inv cfg)), inv_init. Qed.

Lemma client_quiet_spec : forall cfg s c st, cst_of c s = Some st ->
    client_quiet s (mkClient c st) = true <->
    pstep cfg s (EvPoll c) = None /\ pstep cfg s (EvIdle c) = None /\ pstep cfg s (EvExit c) = None.
Proof.
  intros cfg s c st E. cbn [pstep]. rewrite E. unfold client_quiet, dq_popleft. cbn [c_st].
  destruct st as [|dl|r|]; try (split; [repeat split | reflexivity]).
  - (* in poll(): popleft blocks iff the deque is empty, the idle timer waits iff the deadline is ahead *)
    destruct (cnt (q s) =? 0); [|split; [discriminate|]; destruct (items (q s)); intros [H _]; discriminate H].
    destruct dl as [dl|]; [|repeat split]. destruct (dl <=? now s); [|repeat split].
    split; [discriminate|]. intros (_ & H & _). discriminate H.
  - (* _run is over: the exit callback is pending *)
    split; [discriminate|]. intros (_ & _ & H). discriminate H.
Qed.

Lemma quiescent_b_sound : forall cfg s,
    quiescent_b s = true -> quiescent (S := pool_sys cfg) internal_ev s.
Proof.
  intros cfg s Q. unfold quiescent_b in Q. rewrite forallb_forall in Q.
  assert (H : forall c, pstep cfg s (EvPoll c) = None /\ pstep cfg s (EvIdle c) = None /\ pstep cfg s (EvExit c) = None).
  { intros c. destruct (cst_of c s) as [st|] eqn:E; [apply (client_quiet_spec cfg s c st E), Q, cst_In, E|].
    cbn [pstep]. rewrite E. repeat split. }
  intros e He. destruct e; try contradiction; apply H.
Qed.

Lemma quiescent_b_complete : forall cfg s,
    NoDup (map c_id (pool s)) -> quiescent (S := pool_sys cfg) internal_ev s -> quiescent_b s = true.
Proof.
  intros cfg s ND Q. apply forallb_forall. intros cl HI.
  pose proof (cst_NoDup _ _ ND HI) as E. destruct cl as [c st].
  apply (client_quiet_spec cfg s c st E). repeat split; [exact (Q (EvPoll c) I) | exact (Q (EvIdle c) I) | exact (Q (EvExit c) I)].
Qed.

Lemma no_strand : forall cfg s,
    Inv cfg s -> quiescent (S := pool_sys cfg) internal_ev s -> items (q s) <> [] ->
    pool s <> [] /\
    forall cl, In cl (pool s) -> c_st cl = Busy \/ exists r, c_st cl = Delivering r.
Proof.
  intros cfg s [I Hsv] Q Hq. split; [exact (Hsv Hq)|]. intros cl HI.
  pose proof (quiescent_b_complete cfg s (proj1 (inv_ids _ _ I)) Q) as Qb.
  unfold quiescent_b in Qb. rewrite forallb_forall in Qb. specialize (Qb cl HI). unfold client_quiet in Qb.
  destruct (c_st cl) as [| dl | r |]; [left; reflexivity | | right; exists r; reflexivity | discriminate].
  (* a client in poll() would be woken: the semaphore counts the pending request *)
  apply andb_true_iff in Qb. destruct Qb as [Qb _]. apply N.eqb_eq in Qb.
  rewrite (inv_sema _ _ I) in Qb. contradiction Hq. exact (nlen_zero _ _ Qb).
Qed.

(* the premises of no_strand are satisfiable: a busy pool of size 1 with a second request waiting *)
Example no_strand_example :
  let s := run (S := pool_sys (mkCfg 1 None)) [EvAttempt 7; EvEnterPoll 0; EvPoll 0; EvAttempt 8] in
  quiescent_b s = true /\ items (q s) = [mkReq 1 8] /\ pool s = [mkClient 0 (Delivering (mkReq 0 7))].
Proof. vm_compute. repeat split. Qed.

Lemma never_stuck : forall cfg s cl,
    Inv cfg s -> items (q s) <> [] -> In cl (pool s) ->
    exists e, (match e with EvAttempt _ | EvAdvance _ => False | _ => True end) /\
              pstep cfg s e <> None.
Proof.
  intros cfg s cl [I0 _] Hq HI.
  pose proof (cst_NoDup _ _ (proj1 (inv_ids _ _ I0)) HI) as Ec. change (cst_of (c_id cl) s = Some (c_st cl)) in Ec.
  destruct (c_st cl) as [| dl | r |];
    [exists (EvEnterPoll (c_id cl)) | exists (EvPoll (c_id cl)) | exists (EvDone (c_id cl) 0) | exists (EvExit (c_id cl))];
    (split; [exact I|]); cbn [pstep]; rewrite Ec; try discriminate.
  (* in poll(): the semaphore counts the pending request, and popleft finds it *)
  pose proof (popleft_ok _ (q s) (inv_sema _ _ I0)) as P.
  destruct (dq_popleft (q s)); [contradiction | contradiction | discriminate].
Qed.

Definition Acct (s : pstate) : Prop :=
  Permutation (attempts s) (items (q s) ++ inflight (pool s) ++ map res_req (results s)).

Lemma acct_add_client : forall s, Acct s -> Acct (add_client s).
Proof.
  intros s A. unfold Acct, inflight in *. cbn [add_client attempts q pool results].
  rewrite flat_map_app. cbn. rewrite app_nil_r. exact A.
Qed.

Lemma res_req_own : forall r k, res_req (mkRes (r_slot r) (r_env r) k) = r.
Proof. intros [a b] k. reflexivity. Qed.

Lemma acct_to_state : forall c st st' s, cst_of c s = Some st -> req_of st = [] -> req_of st' = [] ->
    Acct s -> Acct (to_state c st' s).
Proof.
  intros c st st' s E H1 H2 A. pose proof (inflight_set_cst c st st' _ E) as P. rewrite H1, H2 in P.
  unfold Acct. cbn [to_state set_pool attempts q pool results]. rewrite P. exact A.
Qed.

Lemma pstep_acct : forall cfg s e s',
    contract_ev e -> Inv cfg s -> Acct s -> pstep cfg s e = Some s' -> Acct s'.
Proof.
  intros cfg s e s' Hc I0 A H. destruct e; cbn [pstep] in H;
    try (destruct (cst_of c s) as [[| dl | r |]|] eqn:E; try discriminate).
  - (* attempt: one more attempt, one more item *)
    injection H as <-. unfold Acct, do_attempt. cbn [attempts q pool results dq_append items].
    assert (A1 : Acct (check_idle cfg s))
      by (destruct (check_idle_cases cfg s) as [[-> _] | [-> _]]; [exact A | apply acct_add_client, A]).
    rewrite A1, <- !app_assoc. apply Permutation_app_head. rewrite app_assoc. apply Permutation_app_comm.
  - injection H as <-. exact A.
  - injection H as <-. exact (acct_to_state c Busy (Polling (deadline_of cfg s)) s E eq_refl eq_refl A).
  - injection H as <-. exact (acct_to_state c Busy Exiting s E eq_refl eq_refl A).
  - (* poll: the head item becomes the client's request *)
    pose proof (popleft_ok _ (q s) (inv_sema _ _ (proj1 I0))) as P.
    destruct (dq_popleft (q s)) as [|d|r d]; [discriminate | contradiction |].
    injection H as <-. destruct P as [P _].
    pose proof (inflight_set_cst c _ (Delivering r) _ E) as Pf. cbn [req_of app] in Pf.
    unfold Acct in *. cbn [set_q leave_poll set_waiters to_state set_pool attempts q pool results].
    rewrite Pf, A, P. apply Permutation_middle.
  - destruct dl as [dl|]; [|discriminate]. destruct (dl <=? now s); [|discriminate].
    injection H as <-. exact (acct_to_state c _ Busy s E eq_refl eq_refl A).
  - (* done: the client's request becomes a result *)
    injection H as <-.
    pose proof (inflight_set_cst c _ Busy _ E) as Pf. cbn [req_of app] in Pf.
    unfold Acct in *. cbn [to_state set_pool add_result attempts q pool results].
    rewrite map_app, A, <- Pf. cbn [map]. rewrite res_req_own.
    apply Permutation_app_head. cbn [app]. rewrite app_assoc. apply Permutation_cons_append.
  - (* requeue: the client's request becomes the head item *)
    injection H as <-.
    pose proof (inflight_set_cst c _ Busy _ E) as Pf. cbn [req_of app] in Pf.
    unfold Acct in *. cbn [to_state set_pool set_q dq_appendleft attempts q pool results items].
    rewrite A, <- Pf. cbn [app]. apply Permutation_sym, Permutation_middle.
  - contradiction.
  - (* exit *)
    injection H as <-.
    assert (A1 : Acct (set_pool (del_client c (pool s)) s))
      by (unfold Acct in *; cbn [set_pool attempts q pool results]; rewrite (inflight_del_client c _ _ E eq_refl); exact A).
    destruct (remove_client_cases c s) as [[-> _] | [-> _]]; [apply acct_add_client, A1 | exact A1].
Qed.

Lemma acct_all_schedules : forall cfg (es : list pevent),
    Forall contract_ev es ->
    Inv cfg (run (S := pool_sys cfg) es) /\ Acct (run (S := pool_sys cfg) es).
Proof.
  intros cfg es F.
  apply (inv_run_guarded (pool_sys cfg) contract_ev (fun s => Inv cfg s /\ Acct s)).
  - intros s e s' Hc [I0 A] H. split; [exact (pstep_inv cfg s e s' I0 H) | exact (pstep_acct cfg s e s' Hc I0 A H)].
  - split; [apply inv_init | unfold Acct; cbn; constructor].
  - exact F.
Qed.

Lemma answered_own : forall n (att wait held : list request) (res : list result),
    fresh_below n (map r_slot att) -> Permutation att (wait ++ held ++ map res_req res) ->
    (forall r, In r res ->
       In (mkReq (res_slot r) (res_env r)) att /\
       forall a, In a att -> r_slot a = res_slot r -> r_env a = res_env r) /\
    NoDup (map res_slot res).
Proof.
  intros n att wait held res F P. split.
  - intros r Hr.
    assert (Hin : In (res_req r) att).
    { apply (Permutation_in _ (Permutation_sym P)). apply in_or_app. right. apply in_or_app. right. apply in_map, Hr. }
    split; [exact Hin|]. intros a Ha E. rewrite (fresh_inj _ r_slot n att a (res_req r) F Ha Hin E). reflexivity.
  - (* the answered slots are among the attempts' slots *)
    pose proof (Permutation_NoDup (Permutation_map r_slot P) (proj1 F)) as ND.
    rewrite !map_app, map_map in ND. apply NoDup_app_iff in ND. destruct ND as (_ & ND & _).
    apply NoDup_app_iff in ND. destruct ND as (_ & ND & _). exact ND.
Qed.

Example own_result_example :
  let s := run (S := pool_sys (mkCfg 1 (Some 5)))
               [EvAttempt 10; EvAttempt 11; EvEnterPoll 0; EvPoll 0; EvRequeue 0; EvEnterPoll 0;
                EvPoll 0; EvDone 0 1; EvEnterPoll 0; EvPoll 0; EvDone 0 0] in
  results s = [mkRes 0 10 1; mkRes 1 11 0] /\ attempts s = [mkReq 0 10; mkReq 1 11].
Proof. vm_compute. split; reflexivity. Qed.

(* not vacuous: the bound is reached *)
Example pool_bound_reached :
  nlen (pool (run (S := pool_sys (mkCfg 2 None)) [EvAttempt 0; EvAttempt 1; EvAttempt 2])) = 2.
Proof. vm_compute. reflexivity. Qed.

(* a log checker as a partial automaton: the state after the log, None once a step is refused *)
Section Automaton.
  Context {St : Type} (step : St -> wire -> option St).

  Fixpoint aend (st : St) (log : list wire) : option St :=
    match log with
    | [] => Some st
    | w :: l => match step st w with Some st' => aend st' l | None => None end
    end.

  Lemma aend_app : forall a b st,
      aend st (a ++ b) = match aend st a with Some st' => aend st' b | None => None end.
  Proof.
    induction a as [|w a IH]; intros b st; cbn [app aend]; [reflexivity|].
    destruct (step st w); [apply IH | reflexivity].
  Qed.
End Automaton.

(* [one_at_a_time] as an automaton over the message whose transaction is open ... *)
Definition ostep (cur : option N) (w : wire) : option (option N) :=
  let same e := match cur with Some e' => e =? e' | None => false end in
  let mine e := match cur with Some e' => e =? e' | None => true end in
  match w with
  | WMail e => match cur with None => Some (Some e) | Some _ => None end
  | WRcpt e | WData e => if same e then Some cur else None
  | WBody e | WEmptyBody e => if same e then Some None else None
  | WRset => Some None
  | WResult e _ | WResultRcpts e | WRequeue e => if mine e then Some cur else None
  | WConnect | WHandshake | WQuit | WClose => Some cur
  end.

(* ... and [reset_after_failure] over "a failed transaction still waits for its RSET" *)
Definition rstep (dirty : bool) (w : wire) : option bool :=
  match w with
  | WResult _ false | WResultRcpts _ => Some true
  | WRset => Some false
  | WMail _ => if dirty then None else Some dirty
  | _ => Some dirty
  end.

Lemma one_at_a_time_step : forall cur w l,
    one_at_a_time cur (w :: l) = match ostep cur w with Some c => one_at_a_time c l | None => false end.
Proof.
  intros [e'|] w l; destruct w; cbn [one_at_a_time ostep]; try reflexivity; destruct (e =? e'); reflexivity.
Qed.

Lemma reset_after_failure_step : forall d w l,
    reset_after_failure d (w :: l) = match rstep d w with Some d' => reset_after_failure d' l | None => false end.
Proof. intros d w l. destruct w; try destruct ok; try destruct d; reflexivity. Qed.

Definition wstep (st : option N * bool) (w : wire) : option (option N * bool) :=
  let (c, d) := st in
  match ostep c w, rstep d w with Some c', Some d' => Some (c', d') | _, _ => None end.

Definition wend := aend wstep.
Definition clean : option N * bool := (None, false).

Lemma wend_sound : forall log c d, wend (c, d) log <> None ->
    one_at_a_time c log = true /\ reset_after_failure d log = true.
Proof.
  unfold wend. induction log as [|w l IH]; intros c d H; [split; reflexivity|].
  rewrite one_at_a_time_step, reset_after_failure_step. cbn [aend wstep] in H.
  destruct (ostep c w) as [c'|], (rstep d w) as [d'|]; try contradiction.
  exact (IH c' d' H).
Qed.

(* run the automaton over the items written out in the goal; they belong to the open transaction *)
Ltac wsteps := unfold wend; repeat progress (cbn [aend wstep ostep rstep set_failure app]; rewrite ?N.eqb_refl).

Definition only_rcpt (e : N) (l : list wire) : Prop := Forall (fun w => w = WRcpt e) l.

Lemma wend_rcpts : forall e d l l', only_rcpt e l -> wend (Some e, d) (l ++ l') = wend (Some e, d) l'.
Proof.
  intros e d l l' H. induction H as [|w l -> _ IH]; [reflexivity|].
  rewrite <- IH. wsteps. reflexivity.
Qed.

Lemma send_rcpts_only : forall e l, only_rcpt e (fst (send_rcpts e l)).
Proof.
  intros e. induction l as [|x l IH]; cbn [send_rcpts]; [constructor|].
  destruct x; try (destruct (send_rcpts e l) as [w ok]; constructor; [reflexivity | exact IH]).
  repeat constructor.
Qed.

Lemma map_rcpt_only : forall e (l : list srv), only_rcpt e (map (fun _ => WRcpt e) l).
Proof. intros e l. induction l; constructor; [reflexivity | assumption]. Qed.

(* one delivery, started clean, is accepted; it ends clean, or - when the connection is lost - at
   worst inside its own transaction *)
Definition is_lost_res (d : dres) : bool := match d with DLost => true | _ => false end.

Definition wire_ok (e : N) (p : list wire * dres) : Prop :=
  match wend clean (fst p) with
  | Some (c, d) => if is_lost_res (snd p) then c = None \/ c = Some e else (c, d) = clean
  | None => False
  end.

Lemma lost_ok : forall e pre c d,
    wend clean pre = Some (c, d) -> c = None \/ c = Some e -> wire_ok e (pre, DLost).
Proof. intros e pre c d Hp Hc. unfold wire_ok. cbn [fst snd is_lost_res]. rewrite Hp. exact Hc. Qed.

Lemma failed_ok : forall e sc mx pre c d,
    wend clean pre = Some (c, d) -> c = None \/ c = Some e -> wire_ok e (failed e sc mx pre).
Proof.
  intros e sc mx pre c d Hp Hc. unfold wire_ok, failed, wend in *. cbn [fst snd is_lost_res]. rewrite aend_app, Hp.
  destruct Hc as [-> | ->], mx; wsteps; reflexivity.
Qed.

Lemma wend_snoc : forall pre st w, wend clean pre = Some st -> wend clean (pre ++ [w]) = wstep st w.
Proof. intros pre st w Hp. unfold wend in *. rewrite aend_app, Hp. cbn [aend]. destruct (wstep st w); reflexivity. Qed.

Lemma empty_data_ok : forall pipe e sc mx pre d,
    wend clean pre = Some (Some e, d) -> wire_ok e (empty_data pipe e sc mx pre).
Proof.
  intros pipe e sc mx pre d Hp. unfold empty_data. destruct pipe.
  - unfold wire_ok, wend in *. cbn [fst snd is_lost_res]. rewrite aend_app, Hp.
    destruct mx; wsteps; reflexivity.
  - pose proof (wend_snoc pre _ (WEmptyBody e) Hp) as Hp2. cbn [wstep ostep rstep] in Hp2. rewrite N.eqb_refl in Hp2.
    destruct (ms_body sc);
      [eapply failed_ok; [exact Hp2 | left; reflexivity] .. | eapply lost_ok; [exact Hp2 | left; reflexivity]].
Qed.

Lemma after_data_ok : forall pipe e sc mail_rej pre,
    wend clean pre = Some (Some e, false) -> wire_ok e (after_data pipe e sc mail_rej pre).
Proof.
  intros pipe e sc mail_rej pre Hp. unfold after_data.
  pose proof (wend_snoc pre _ (WBody e) Hp) as Hb. cbn [wstep ostep rstep] in Hb. rewrite N.eqb_refl in Hb.
  assert (Hfail : forall mx, wire_ok e (match ms_data sc with
                                        | SOk => empty_data pipe e sc mx pre
                                        | _ => failed e sc mx pre
                                        end)).
  { intros mx. destruct (ms_data sc);
      [eapply empty_data_ok; exact Hp | eapply failed_ok; [exact Hp | right; reflexivity] ..]. }
  destruct (ms_rcpts sc) as [|x rc].
  - destruct mail_rej; [apply Hfail | eapply lost_ok; [exact Hp | right; reflexivity]].
  - destruct (mail_rej || forallb is_rej (x :: rc) || is_rej (ms_data sc)); [apply Hfail|].
    destruct (ms_body sc);
      [| eapply failed_ok; [exact Hb | left; reflexivity] .. | eapply lost_ok; [exact Hb | left; reflexivity]].
    unfold wire_ok. cbn [fst snd is_lost_res].
    change [WBody e; WResult e true] with ([WBody e] ++ [WResult e true]).
    rewrite app_assoc, (wend_snoc _ _ _ Hb). reflexivity.
Qed.

Lemma deliver_ok : forall pipe e sc, wire_ok e (deliver pipe e sc).
Proof.
  intros pipe e sc. unfold deliver.
  destruct (negb (ms_enc sc)); [eapply failed_ok; [reflexivity | left; reflexivity]|].
  assert (Hr : forall rc l, only_rcpt e rc -> wend clean (WMail e :: rc ++ l) = wend (Some e, false) l)
    by (intros rc l H; exact (wend_rcpts e false rc l H)).
  assert (Hd : forall rc, only_rcpt e rc -> wend clean (WMail e :: rc ++ [WData e]) = Some (Some e, false))
    by (intros rc H; rewrite (Hr rc _ H); wsteps; reflexivity).
  destruct pipe.
  - specialize (Hd _ (map_rcpt_only e (ms_rcpts sc))).
    destruct (is_drop (ms_mail sc) || existsb is_drop (ms_rcpts sc) || is_drop (ms_data sc));
      [eapply lost_ok; [exact Hd | right; reflexivity] | apply after_data_ok; exact Hd].
  - assert (Hm : wend clean [WMail e] = Some (Some e, false)) by reflexivity.
    destruct (ms_mail sc);
      [| eapply failed_ok; [exact Hm | right; reflexivity] .. | eapply lost_ok; [exact Hm | right; reflexivity]].
    pose proof (send_rcpts_only e (ms_rcpts sc)) as Hs. specialize (Hd _ Hs).
    destruct (send_rcpts e (ms_rcpts sc)) as [wr alive]. cbn [fst] in Hs.
    destruct alive; cbn [negb].
    + destruct (ms_data sc); [apply after_data_ok; exact Hd .. | eapply lost_ok; [exact Hd | right; reflexivity]].
    + apply (lost_ok e _ (Some e) false); [|right; reflexivity].
      rewrite <- (app_nil_r wr). exact (Hr wr [] Hs).
Qed.

(* one pass of the `while result:` loop: what it writes, the kind of result it sets, and whether
   the connection can take another message *)
Definition pass (pipe : bool) (r : request) (sc : mscript) : list wire * N * bool :=
  let (w, d) := deliver pipe (r_env r) sc in
  match d with
  | DOk => (w, K_OK, true)
  | DRejected mx alive => (w, if mx then K_RCPTS else K_REJECTED, alive)
  | DLost => (w ++ [WResult (r_env r) false], K_LOST, false)
  end.

Lemma smtp_loop_eq : forall pipe reuse rest r sc,
    smtp_loop pipe reuse rest r sc =
    if ms_pre sc then ([WRequeue (r_env r)], [ARequeue r], true)
    else
      let '(w, k, alive) := pass pipe r sc in
      if alive && reuse then
        match rest with
        | [] => (w, [ADone r k; AEnter], false)
        | None :: _ => (w, [ADone r k; AEnter; AIdle], true)
        | Some (r', sc') :: rest' =>
            let '(w', a', x') := smtp_loop pipe reuse rest' r' sc' in
            (w ++ w', ADone r k :: AEnter :: APoll r' :: a', x')
        end
      else (w, [ADone r k], true).
Proof.
  intros. unfold pass. destruct rest; cbn [smtp_loop]; destruct (ms_pre sc); try reflexivity;
    destruct (deliver pipe (r_env r) sc) as [w [|mx [|]|]]; destruct reuse; reflexivity.
Qed.

Lemma pass_ok : forall pipe r sc,
    match wend clean (fst (fst (pass pipe r sc))) with
    | Some st => snd (pass pipe r sc) = true -> st = clean
    | None => False
    end.
Proof.
  intros pipe r sc. unfold pass. pose proof (deliver_ok pipe (r_env r) sc) as D. unfold wire_ok in D.
  destruct (deliver pipe (r_env r) sc) as [w d]. cbn [fst snd] in D.
  destruct (wend clean w) as [[c dirty]|] eqn:Ew; [|contradiction].
  destruct d as [|mx alive|]; cbn [fst snd is_lost_res] in *; try (rewrite Ew; intros _; exact D).
  (* connection lost inside e's transaction or outside any: the failure is still reported for e *)
  unfold wend in *. rewrite aend_app, Ew. destruct D as [-> | ->]; wsteps; discriminate.
Qed.

Lemma loop_ok : forall pipe reuse rest r sc,
    wend clean (fst (fst (smtp_loop pipe reuse rest r sc))) <> None.
Proof.
  intros pipe reuse. induction rest as [|p rest IH]; intros r sc; rewrite smtp_loop_eq;
    (destruct (ms_pre sc); [discriminate|]);
    pose proof (pass_ok pipe r sc) as P; destruct (pass pipe r sc) as [[w k] alive]; cbn [fst snd] in P;
    destruct (wend clean w) as [st|] eqn:Ew; try contradiction;
    (destruct (alive && reuse) eqn:G; [|cbn [fst]; rewrite Ew; discriminate]).
  - cbn [fst]. rewrite Ew. discriminate.
  - destruct p as [[r' sc']|]; [|cbn [fst]; rewrite Ew; discriminate].
    specialize (IH r' sc'). destruct (smtp_loop pipe reuse rest r' sc') as [[w' a'] x']. cbn [fst] in *.
    apply andb_true_iff in G. unfold wend in *. rewrite aend_app, Ew, (P (proj1 G)). exact IH.
Qed.

Lemma req_eqb_refl : forall r, req_eqb r r = true.
Proof. intros [a b]. unfold req_eqb. cbn. rewrite !N.eqb_refl. reflexivity. Qed.

Lemma loop_contract : forall pipe reuse rest r sc tail,
    follows_contract (HHolding r) (snd (fst (smtp_loop pipe reuse rest r sc)) ++ tail) =
    follows_contract (if snd (smtp_loop pipe reuse rest r sc) then HBusy else HPolling) tail.
Proof.
  intros pipe reuse. induction rest as [|p rest IH]; intros r sc tail; rewrite smtp_loop_eq;
    (destruct (ms_pre sc); [cbn; rewrite req_eqb_refl; reflexivity|]);
    destruct (pass pipe r sc) as [[w k] alive];
    (destruct (alive && reuse); [|cbn; rewrite req_eqb_refl; reflexivity]).
  - cbn. rewrite req_eqb_refl. reflexivity.
  - destruct p as [[r' sc']|]; [|cbn; rewrite req_eqb_refl; reflexivity].
    specialize (IH r' sc' tail). destruct (smtp_loop pipe reuse rest r' sc') as [[w' a'] x'].
    cbn [fst snd app follows_contract] in *. rewrite req_eqb_refl. exact IH.
Qed.

Definition run_wire pipe reuse cs polls := fst (fst (smtp_run pipe reuse cs polls)).
Definition run_acts pipe reuse cs polls := snd (fst (smtp_run pipe reuse cs polls)).

Lemma run_wire_ok : forall pipe reuse cs polls, wend clean (run_wire pipe reuse cs polls) <> None.
Proof.
  intros pipe reuse cs polls. unfold run_wire, smtp_run.
  destruct polls as [|[[r sc]|] rest]; [cbn; discriminate | | cbn; discriminate].
  destruct (cs_connect cs); cbn [negb]; [|cbn; discriminate].
  destruct (cs_handshake cs); try (cbn; discriminate).
  pose proof (loop_ok pipe reuse rest r sc) as L.
  destruct (smtp_loop pipe reuse rest r sc) as [[w a] x]. cbn [fst] in L.
  destruct x; cbn [fst]; [|exact L].
  change (wend clean (w ++ [WQuit; WClose]) <> None). unfold wend in *. rewrite aend_app.
  destruct (aend wstep clean w) as [[c d]|]; [discriminate | contradiction].
Qed.

(* no action of a client is the contract violation: [cact] has none that drops a request *)
Lemma acts_contract : forall c acts, Forall contract_ev (flat_map (evs_of_act c) acts).
Proof.
  intros c acts. apply Forall_forall. intros e He. apply in_flat_map in He. destruct He as [a [_ Ha]].
  destruct a; cbn in Ha; repeat (destruct Ha as [<- | Ha]; [exact I|]); destruct Ha.
Qed.

Lemma smtp_client_contract : forall pipe reuse cs polls,
    follows_contract HBusy (run_acts pipe reuse cs polls) = true.
Proof.
  intros pipe reuse cs polls. unfold run_acts, smtp_run.
  destruct polls as [|[[r sc]|] rest]; [reflexivity | | reflexivity].
  destruct (cs_connect cs); cbn [negb]; [|cbn; rewrite req_eqb_refl; reflexivity].
  destruct (cs_handshake cs); try (cbn; rewrite req_eqb_refl; reflexivity).
  pose proof (loop_contract pipe reuse rest r sc) as L.
  destruct (smtp_loop pipe reuse rest r sc) as [[w a] x]. cbn [fst snd] in L.
  destruct x; cbn [fst snd follows_contract].
  - rewrite (L [AExit]). reflexivity.
  - specialize (L []). rewrite app_nil_r in L. rewrite L. reflexivity.
Qed.

(* a concrete run: second message rejected at RCPT, RSET, third message delivered on the same connection *)
Example smtp_reuse_example :
  let ok := mkMs false true SOk [SOk] SOk SOk true in
  let bad := mkMs false true SOk [SRej] SOk SOk true in
  run_wire false true (mkCs true SOk)
           [Some (mkReq 0 10, ok); Some (mkReq 1 11, bad); Some (mkReq 2 12, ok); None]
  = [WConnect; WHandshake; WMail 10; WRcpt 10; WData 10; WBody 10; WResult 10 true;
     WMail 11; WRcpt 11; WData 11; WEmptyBody 11; WResult 11 false; WRset;
     WMail 12; WRcpt 12; WData 12; WBody 12; WResult 12 true; WQuit; WClose].
Proof. vm_compute. reflexivity. Qed.

(* the rcpt_errors branch of _set_failure: every recipient of message 10 rejected, one with 4xx and
   one with 5xx; the failure is reported per recipient, RSET follows, message 11 uses the same
   connection.  Without that RSET the checker rejects the log. *)
Example smtp_mixed_rejection_example :
  let mixed := mkMs false true SOk [SRej4; SRej] SRej SOk true in
  let ok := mkMs false true SOk [SOk] SOk SOk true in
  run_wire false true (mkCs true SOk) [Some (mkReq 0 10, mixed); Some (mkReq 1 11, ok); None]
  = [WConnect; WHandshake; WMail 10; WRcpt 10; WRcpt 10; WData 10; WResultRcpts 10; WRset;
     WMail 11; WRcpt 11; WData 11; WBody 11; WResult 11 true; WQuit; WClose]
  /\ reset_after_failure false
       [WMail 10; WRcpt 10; WRcpt 10; WData 10; WResultRcpts 10; WMail 11] = false
  /\ snd (deliver true 10 (mkMs false true SOk [SRej; SRej4; SRej] SOk SOk true)) = DRejected true true.
Proof. vm_compute. repeat split. Qed.

Definition hrun_wire reuse polls := fst (fst (http_run reuse polls)).
Definition hrun_acts reuse polls := snd (fst (http_run reuse polls)).

Lemma http_loop_ok : forall reuse polls conn,
    http_clean HClean (fst (fst (http_loop reuse conn polls))) = true /\
    follows_contract HBusy (snd (fst (http_loop reuse conn polls))) = true.
Proof.
  intros reuse. induction polls as [|p polls IH]; intros conn; [split; reflexivity|].
  cbn [http_loop]. destruct p as [[r h]|].
  - (* an exchange: it ends with the connection open and clean, or closed *)
    pose proof (IH true) as IH'. destruct (http_loop reuse true polls) as [[w a] x]. cbn [fst snd] in IH'.
    destruct h, reuse, conn; cbn [fst snd app http_clean follows_contract];
      rewrite ?N.eqb_refl, ?req_eqb_refl; cbn [andb http_clean]; try (split; reflexivity); exact IH'.
  - destruct reuse; [|destruct conn; split; reflexivity].
    pose proof (IH false) as IH'. destruct (http_loop true false polls) as [[w a] x].
    destruct conn; exact IH'.
Qed.

(* first delivery times out, the connection is closed, the client ends; a checker-rejected log for
   contrast: the next request on the connection that still is inside the broken exchange *)
Example http_reset_example :
  hrun_wire true [Some (mkReq 0 10, HOk); Some (mkReq 1 11, HTimeout)]
  = [HRequest 10; HConnect; HResponse 10; HResultW 10 true; HRequest 11; HResultW 11 false; HCloseW]
  /\ http_clean HClean [HRequest 11; HConnect; HResultW 11 false; HRequest 12] = false.
Proof. vm_compute. split; reflexivity. Qed.

(* the reply a lost-connection result is built from was issued during the SAME message's exchange,
   or is synthetic; [last] may hold a 421 only if the trace starts with that message's failing read *)
Lemma lost_sources_own_gen : forall tr last,
    wf_reads tr = true ->
    (forall k, last = Some (k, E421) ->
               match tr with [] => True | r :: _ => rd_kind r = RdLost /\ rd_msg r = k end) ->
    forall m src, In (m, src) (lost_sources error_source last tr) -> src = None \/ src = Some m.
Proof.
  induction tr as [|r tr IH]; intros last Hwf Hinv m src HI; [destruct HI|].
  cbn [wf_reads] in Hwf. apply andb_true_iff in Hwf. destruct Hwf as [Hadj Hwf].
  cbn [lost_sources] in HI. destruct (rd_kind r) as [|c|] eqn:Ek.
  - (* ok read: last unchanged; it cannot be a pending 421 *)
    unfold upd_last in HI. rewrite Ek in HI. apply (IH last Hwf); [|exact HI].
    intros k Hl. specialize (Hinv k Hl). destruct Hinv as [H1 _]. discriminate.
  - apply (IH (upd_last last r) Hwf); [|exact HI].
    unfold upd_last. rewrite Ek. intros k Hl. inversion Hl; subst.
    destruct tr as [|b tr']; [exact I|]. apply andb_true_iff in Hadj. destruct Hadj as [H1 H2].
    unfold is_lost in H2. destruct (rd_kind b); try discriminate. split; [reflexivity | apply N.eqb_eq; exact H1].
  - (* failed read: nothing follows *)
    destruct tr as [|b tr']; [|discriminate Hadj].
    destruct HI as [HI | []]. inversion HI; subst.
    unfold error_source. destruct last as [[k [| |]]|]; try (left; reflexivity).
    right. specialize (Hinv k eq_refl). cbn in Hinv. destruct Hinv as [_ ->]. reflexivity.
Qed.

(* hypotheses satisfiable, and the own-421 case exists: recipient of message 1 answered 421, then
   the connection is gone while message 1 is still in progress *)
Example lost_source_example :
  let tr := [mkRd 0 RdOk; mkRd 0 (RdErr E4xx); mkRd 0 RdOk; mkRd 0 RdOk;
             mkRd 1 RdOk; mkRd 1 (RdErr E421); mkRd 1 RdLost] in
  wf_reads tr = true /\ lost_sources error_source None tr = [(1, Some 1)].
Proof. vm_compute. split; reflexivity. Qed.
