(* Programs over a substrate (model/StoreCore.v, Sections Prog and Thread):
   agents whose commands stay inside disjoint footprints do not interfere under
   any schedule (`non_interference`); a thread run alone keeps a Hoare-style
   invariant (`okrun`, `th_inv`) and ends with its sequential run; the two give
   `interleave_solo`.  Read-only threads can be erased from a schedule. *)
From Coq Require Import List Lia PeanoNat.
From SV Require Import model.StoreCore.
Import ListNotations.

Lemma nth_error_set_nth_same {A} n (x : A) l : (n < length l)%nat -> nth_error (set_nth n x l) n = Some x.
Proof.
  revert n; induction l as [|y l IH]; intros n H; cbn [length] in H; [lia|].
  destruct n; cbn [set_nth nth_error]; [reflexivity|apply IH; lia].
Qed.

Lemma nth_error_set_nth_other {A} n m (x : A) l : n <> m -> nth_error (set_nth n x l) m = nth_error l m.
Proof.
  revert n m; induction l as [|y l IH]; intros n m H; [destruct n; reflexivity|].
  destruct n, m; cbn [set_nth nth_error]; try reflexivity; [congruence|apply IH; congruence].
Qed.

Lemma length_set_nth {A} n (x : A) l : length (set_nth n x l) = length l.
Proof.
  revert n; induction l as [|y l IH]; intros n; [destruct n; reflexivity|].
  destruct n; cbn [set_nth length]; [reflexivity|rewrite IH; reflexivity].
Qed.

Lemma set_nth_same {A} n (x : A) l : nth_error l n = Some x -> set_nth n x l = l.
Proof.
  revert n; induction l as [|y l IH]; intros [|n] E; cbn [set_nth nth_error] in *; try discriminate.
  - inversion E; reflexivity.
  - rewrite (IH n E). reflexivity.
Qed.

Lemma set_nth_app1 {A} i (x : A) l1 l2 : (i < length l1)%nat -> set_nth i x (l1 ++ l2) = set_nth i x l1 ++ l2.
Proof.
  revert i; induction l1 as [|y l1 IH]; intros i H; cbn [length] in H; [lia|].
  destruct i; cbn [app set_nth]; [reflexivity|rewrite IH by lia; reflexivity].
Qed.

Lemma set_nth_app2 {A} i (x : A) l1 l2 : (length l1 <= i)%nat -> set_nth i x (l1 ++ l2) = l1 ++ set_nth (i - length l1) x l2.
Proof.
  revert i; induction l1 as [|y l1 IH]; intros i H; cbn [length app].
  - rewrite Nat.sub_0_r. reflexivity.
  - cbn [length] in H. destruct i; [lia|]. cbn [set_nth Nat.sub]. rewrite IH by lia. reflexivity.
Qed.

Lemma Forall_set_nth {A} (P : A -> Prop) i x l : P x -> Forall P l -> Forall P (set_nth i x l).
Proof.
  intros Hx H; revert i; induction H as [|y l Hy Hl IH]; intros i; [destruct i; constructor|].
  destruct i; cbn [set_nth]; constructor; auto.
Qed.

(* loc: what of the substrate lives at a key; fp: which keys a command touches.
   A command with a footprint leaves every other key alone, and its answer and
   what it leaves at the keys of its footprint depend on those keys only. *)
Definition local_exec {St Cmd Ans Key L} (exec : St -> Cmd -> St * Ans) (loc : St -> Key -> L)
                      (fp : Cmd -> option (Key -> bool)) : Prop :=
  (forall s c f k, fp c = Some f -> f k = false -> loc (fst (exec s c)) k = loc s k) /\
  (forall s t c f, fp c = Some f -> (forall k, f k = true -> loc s k = loc t k) ->
     snd (exec s c) = snd (exec t c) /\
     forall k, f k = true -> loc (fst (exec s c)) k = loc (fst (exec t c)) k).

Section NonInterference.
  Variables (St Cmd Ans Key L : Type).
  Variable exec : St -> Cmd -> St * Ans.
  Variable loc : St -> Key -> L.
  Variable fp : Cmd -> option (Key -> bool).
  Hypothesis exec_local : local_exec exec loc fp.

  Variable Ag : Type.
  Variable next : Ag -> option (Cmd * (Ans -> Ag)).
  (* Own F a: agent a, now and after any answers, only issues commands whose
     footprint lies inside F *)
  Variable Own : (Key -> bool) -> Ag -> Prop.
  Hypothesis own_step : forall F a c k,
      Own F a -> next a = Some (c, k) ->
      (exists f, fp c = Some f /\ forall x, f x = true -> F x = true) /\ forall ans, Own F (k ans).

  Notation astep := (astep exec next).
  Notation asteps := (asteps exec next).
  Notation sched := (sched exec next).

  Lemma asteps_snoc n s a :
    asteps (S n) s a = let (s1, a1) := asteps n s a in astep s1 a1.
  Proof.
    revert s a; induction n as [|n IH]; intros s a.
    - cbn [StoreCore.asteps]. destruct (astep s a); reflexivity.
    - change (asteps (S (S n)) s a) with (let (s', a') := astep s a in asteps (S n) s' a').
      change (asteps (S n) s a) with (let (s', a') := astep s a in asteps n s' a').
      destruct (astep s a) as [s' a']. apply IH.
  Qed.

  (* the agents: one per x of specs, started as `start x`, owning `foot x` *)
  Variable X : Type.
  Variable foot : X -> Key -> bool.
  Variable start : X -> Ag.
  Variable s0 : St.
  Variable specs : list X.
  Hypothesis own0 : forall x, In x specs -> Own (foot x) (start x).
  Hypothesis disjoint : forall i j xi xj k,
      i <> j -> nth_error specs i = Some xi -> nth_error specs j = Some xj -> foot xi k = true -> foot xj k = false.

  (* the combined state seen through agent i's keys is the state of agent i
     running alone for some number of steps; keys nobody owns are untouched *)
  Definition NI (s : St) (ags : list Ag) : Prop :=
    length ags = length specs /\
    (forall i x, nth_error specs i = Some x ->
       exists n si ai, asteps n s0 (start x) = (si, ai) /\ nth_error ags i = Some ai /\ Own (foot x) ai /\
                       forall k, foot x k = true -> loc s k = loc si k) /\
    (forall k, (forall x, In x specs -> foot x k = false) -> loc s k = loc s0 k).

  Lemma NI_init : NI s0 (map start specs).
  Proof.
    split; [apply map_length|]. split; [|reflexivity].
    intros i x Hx. exists O, s0, (start x). cbn [StoreCore.asteps].
    repeat split; [apply map_nth_error; exact Hx|eapply own0, nth_error_In; exact Hx].
  Qed.

  Lemma NI_step s ags i a :
    NI s ags -> nth_error ags i = Some a ->
    NI (fst (astep s a)) (set_nth i (snd (astep s a)) ags).
  Proof.
    intros H Hi. unfold StoreCore.astep. destruct (next a) as [[c k]|] eqn:En.
    2:{ cbn [fst snd]. rewrite set_nth_same by exact Hi. exact H. }
    destruct H as (Hlen & Hag & Hout).
    assert (Hil : (i < length ags)%nat) by (apply nth_error_Some; congruence).
    destruct (nth_error specs i) as [xi|] eqn:Exi; [|apply nth_error_None in Exi; lia].
    destruct (Hag i xi Exi) as (n & si & ai & Hrun & Hnth & Hown & Hloc).
    rewrite Hi in Hnth. inversion Hnth; subst ai. clear Hnth.
    (* the command touches keys f inside foot xi; on them s and the solo state si agree *)
    destruct (own_step (foot xi) a c k Hown En) as ((f & Hf & Hsub) & Hownk).
    destruct (proj2 exec_local s si c f Hf) as (Hans & Hloc').
    { intros x Hx. apply Hloc. apply Hsub. exact Hx. }
    pose proof (proj1 exec_local s c f) as Fs. pose proof (proj1 exec_local si c f) as Fsi.
    destruct (exec s c) as [s' ans] eqn:Es. destruct (exec si c) as [si' ans'] eqn:Esi.
    cbn [fst snd] in *. subst ans'.
    split; [rewrite length_set_nth; exact Hlen|]. split.
    - intros j xj Hxj. destruct (Nat.eq_dec i j) as [<-|Hne].
      + rewrite Exi in Hxj. inversion Hxj; subst xj. exists (S n), si', (k ans). split.
        * rewrite asteps_snoc, Hrun. unfold StoreCore.astep. rewrite En, Esi. reflexivity.
        * split; [apply nth_error_set_nth_same; exact Hil|]. split; [apply Hownk|].
          intros x Hx. destruct (f x) eqn:Efx; [apply Hloc'; exact Efx|].
          rewrite (Fs x Hf Efx), (Fsi x Hf Efx). apply Hloc. exact Hx.
      + (* another agent keeps its solo run: its keys are outside f *)
        destruct (Hag j xj Hxj) as (n' & sj & aj & R1 & R2 & R3 & R4).
        exists n', sj, aj. split; [exact R1|]. split; [rewrite nth_error_set_nth_other by exact Hne; exact R2|].
        split; [exact R3|]. intros x Hx. rewrite <- (R4 x Hx). apply Fs; [exact Hf|].
        destruct (f x) eqn:Efx; [|reflexivity].
        pose proof (disjoint i j xi xj x Hne Exi Hxj (Hsub x Efx)). congruence.
    - intros x Hx. rewrite Fs; [apply Hout; exact Hx|exact Hf|].
      destruct (f x) eqn:Efx; [|reflexivity].
      specialize (Hsub x Efx). rewrite (Hx xi (nth_error_In _ _ Exi)) in Hsub. discriminate.
  Qed.

  Lemma NI_sched sch : forall s ags, NI s ags -> NI (fst (sched sch s ags)) (snd (sched sch s ags)).
  Proof.
    induction sch as [|i sch IH]; intros s ags H; [exact H|].
    cbn [StoreCore.sched]. destruct (nth_error ags i) as [a|] eqn:Ei; [|apply IH; exact H].
    pose proof (NI_step s ags i a H Ei) as H'.
    destruct (astep s a) as [s' a']. apply IH. exact H'.
  Qed.

  Theorem non_interference sch :
    NI (fst (sched sch s0 (map start specs))) (snd (sched sch s0 (map start specs))).
  Proof. apply NI_sched, NI_init. Qed.
End NonInterference.

Section ProgAgents.
  Variables (St Cmd Ans Key R : Type).
  Variable fp : Cmd -> option (Key -> bool).

  Inductive confined (F : Key -> bool) : prog Cmd Ans R -> Prop :=
  | conf_ret r : confined F (Ret r)
  | conf_do c k f : fp c = Some f -> (forall x, f x = true -> F x = true) ->
                    (forall a, confined F (k a)) -> confined F (Do c k).

  Lemma conf_same F c k : fp c = Some F -> (forall a, confined F (k a)) -> confined F (Do c k).
  Proof. intros Hf Hk. exact (conf_do F c k F Hf (fun x H => H) Hk). Qed.

  Lemma confined_step F p c k :
    confined F p -> prog_next p = Some (c, k) ->
    (exists f, fp c = Some f /\ forall x, f x = true -> F x = true) /\ forall a, confined F (k a).
  Proof.
    intros H E. destruct H as [r|c' k' f Hf Hs Hk]; cbn [prog_next] in E; [discriminate|].
    inversion E; subst. split; [exists f; split; assumption|exact Hk].
  Qed.

  Lemma confined_mono (F G : Key -> bool) p :
    (forall x, F x = true -> G x = true) -> confined F p -> confined G p.
  Proof.
    intros HFG H. induction H as [r|c k f Hf Hs Hk IH]; [constructor|].
    econstructor; [exact Hf| |exact IH]. intros x Hx. apply HFG, Hs, Hx.
  Qed.
End ProgAgents.

Arguments confined {Cmd Ans Key R} fp F p.

(* A property P of programs that every step of a program preserves, each
   command issued satisfying Q, lifts to threads: the operation in flight and
   the operations still to be started. *)
Section ThreadLift.
  Variables (Cmd Ans : Type).
  Variable prog_of : op -> prog Cmd Ans res.
  Variable P : prog Cmd Ans res -> Prop.
  Variable Q : Cmd -> Prop.
  Hypothesis P_step : forall p c k, P p -> prog_next p = Some (c, k) -> Q c /\ forall a, P (k a).

  Definition th_all (th : thread Cmd Ans) : Prop :=
    (forall o p, th_cur th = Some (o, p) -> P p) /\ Forall (fun o => P (prog_of o)) (th_todo th).

  Lemma settle_all d o p todo : P p -> Forall (fun o => P (prog_of o)) todo -> th_all (settle d o p todo).
  Proof.
    intros Hp Ht. destruct p as [r|c k]; cbn [settle]; split; cbn [th_cur th_todo]; try assumption.
    - intros o' p' E; discriminate.
    - intros o' p' E; inversion E; subst. exact Hp.
  Qed.

  Lemma th_all_step th c k :
    th_all th -> th_next prog_of th = Some (c, k) -> Q c /\ forall a, th_all (k a).
  Proof.
    intros (Hc & Ht) E. unfold th_next in E.
    destruct (th_cur th) as [[o p]|] eqn:Ec.
    - destruct p as [r|c' k']; [discriminate|]. inversion E; subst c' k.
      destruct (P_step _ _ _ (Hc o _ eq_refl) eq_refl) as [Hq Hk].
      split; [exact Hq|]. intros a. apply settle_all; [apply Hk|exact Ht].
    - destruct (th_todo th) as [|o rest] eqn:Et; [discriminate|].
      inversion Ht as [|? ? Ho Hrest]; subst.
      destruct (prog_of o) as [r|c' k'] eqn:Ep; [discriminate|]. inversion E; subst c' k.
      destruct (P_step _ _ _ Ho eq_refl) as [Hq Hk].
      split; [exact Hq|]. intros a. apply settle_all; [apply Hk|exact Hrest].
  Qed.

  Lemma th_all_start ops : Forall (fun o => P (prog_of o)) ops -> th_all (th_start ops).
  Proof. intros H. split; [intros o p E; discriminate|exact H]. Qed.
End ThreadLift.

Section Solo.
  Variables (St Cmd Ans : Type).
  Variable exec : St -> Cmd -> St * Ans.
  Variable prog_of : op -> prog Cmd Ans res.

  Notation tstep := (astep exec (th_next prog_of)).
  Notation tsteps := (asteps exec (th_next prog_of)).

  (* An invariant of a thread run alone, in the style of a Hoare logic over
     programs: B holds between operations (as a function of the completed
     operations), and while operation o is in flight the rest of its program
     p satisfies `okrun d o`: I d o before every further command, B of the
     completed operations with (o, its result) added when it returns. *)
  Variable I : list (op * res) -> op -> St -> Prop.
  Variable B : list (op * res) -> St -> Prop.

  Inductive okrun (d : list (op * res)) (o : op) : St -> prog Cmd Ans res -> Prop :=
  | ok_ret s r : B (d ++ [(o, r)]) s -> okrun d o s (Ret r)
  | ok_do s c k : I d o s -> (forall s' a, exec s c = (s', a) -> okrun d o s' (k a)) -> okrun d o s (Do c k).

  Lemma ok_step d o s c k :
    I d o s -> okrun d o (fst (exec s c)) (k (snd (exec s c))) -> okrun d o s (Do c k).
  Proof. intros HI H. apply ok_do; [exact HI|]. intros s' a E. rewrite E in H. exact H. Qed.

  Lemma okrun_do_inv d o s c k :
    okrun d o s (Do c k) -> I d o s /\ okrun d o (fst (exec s c)) (k (snd (exec s c))).
  Proof.
    intros H. inversion H as [|? ? ? Hi Hk]; subst. split; [exact Hi|]. apply Hk. destruct (exec s c); reflexivity.
  Qed.

  Lemma okrun_triv d o :
    (forall s, I d o s) ->
    forall p s, B (d ++ [(o, snd (run exec p s))]) (fst (run exec p s)) -> okrun d o s p.
  Proof.
    intros HI. induction p as [r|c k IH]; intros s HB; cbn [run fst snd] in HB.
    - apply ok_ret. exact HB.
    - apply ok_do; [apply HI|]. intros s' a E. rewrite E in HB. apply IH. exact HB.
  Qed.

  Lemma okrun_run d o s p : okrun d o s p -> B (d ++ [(o, snd (run exec p s))]) (fst (run exec p s)).
  Proof.
    induction 1 as [s r HB|s c k HI Hk IH]; cbn [run fst snd]; [exact HB|].
    destruct (exec s c) as [s' a] eqn:E. apply IH. reflexivity.
  Qed.

  Lemma okrun_asteps d o n : forall s p,
    okrun d o s p ->
    match snd (asteps exec prog_next n s p) with
    | Ret r => B (d ++ [(o, r)]) (fst (asteps exec prog_next n s p))
    | Do _ _ => I d o (fst (asteps exec prog_next n s p))
    end.
  Proof.
    induction n as [|n IH]; intros s p H; cbn [asteps].
    - cbn [fst snd]. destruct H; assumption.
    - unfold astep. destruct p as [r|c k]; cbn [prog_next]; [apply IH; exact H|].
      apply okrun_do_inv in H as [_ H]. destruct (exec s c) as [s' a]. apply IH. exact H.
  Qed.

  Definition th_inv (todo_ok : list (op * res) -> list op -> Prop) (s : St) (th : thread Cmd Ans) : Prop :=
    todo_ok (th_done th) (match th_cur th with Some (o, _) => o :: th_todo th | None => th_todo th end) /\
    match th_cur th with
    | None => B (th_done th) s
    | Some (o, p) => okrun (th_done th) o s p /\ exists c k, p = Do c k
    end.

  Variable todo_ok : list (op * res) -> list op -> Prop.
  Hypothesis start_ok : forall d o rest s,
      todo_ok d (o :: rest) -> B d s -> okrun d o s (prog_of o).
  Hypothesis todo_next : forall d o r rest, todo_ok d (o :: rest) -> todo_ok (d ++ [(o, r)]) rest.

  Lemma settle_inv d o p rest s :
    todo_ok d (o :: rest) -> okrun d o s p -> th_inv todo_ok s (settle d o p rest).
  Proof.
    intros Ht Hp. destruct p as [r|c k]; cbn [settle]; split; cbn [th_done th_cur th_todo].
    - eapply todo_next; exact Ht.
    - inversion Hp; subst; assumption.
    - exact Ht.
    - split; [exact Hp|eauto].
  Qed.

  Lemma th_inv_step s th : th_inv todo_ok s th -> th_inv todo_ok (fst (tstep s th)) (snd (tstep s th)).
  Proof.
    intros H. pose proof H as (Ht & Hc). unfold astep, th_next.
    destruct (th_cur th) as [[o p]|] eqn:Ec.
    - destruct Hc as (Hp & c & k & ->). apply okrun_do_inv in Hp as [_ Hp].
      destruct (exec s c) as [s' a]. apply settle_inv; assumption.
    - destruct (th_todo th) as [|o rest] eqn:Et; [exact H|].
      pose proof (start_ok _ _ _ _ Ht Hc) as Hs. destruct (prog_of o) as [r|c k]; [exact H|].
      apply okrun_do_inv in Hs as [_ Hs]. destruct (exec s c) as [s' a]. apply settle_inv; assumption.
  Qed.

  Lemma th_inv_steps n s th :
    th_inv todo_ok s th -> th_inv todo_ok (fst (tsteps n s th)) (snd (tsteps n s th)).
  Proof.
    revert s th; induction n as [|n IH]; intros s th H; [exact H|].
    cbn [asteps]. pose proof (th_inv_step s th H) as H'.
    destruct (tstep s th) as [s' th']. apply IH. exact H'.
  Qed.

  Lemma th_inv_start s ops : todo_ok [] ops -> B [] s -> th_inv todo_ok s (th_start ops).
  Proof. intros Ht Hb. split; [exact Ht|exact Hb]. Qed.

  Lemma th_inv_cur s th o p : th_inv todo_ok s th -> th_cur th = Some (o, p) -> I (th_done th) o s.
  Proof.
    intros (_ & Hc) E. rewrite E in Hc. destruct Hc as (Hp & c & k & ->). apply (okrun_do_inv _ _ _ _ _ Hp).
  Qed.
End Solo.

Section SeqRun.
  Variables (St Cmd Ans : Type).
  Variable exec : St -> Cmd -> St * Ans.
  Variable prog_of : op -> prog Cmd Ans res.

  Fixpoint seq_run (s : St) (ops : list op) : St * list res :=
    match ops with
    | [] => (s, [])
    | o :: ops' => let (s1, x) := run exec (prog_of o) s in
                   let (s2, xs) := seq_run s1 ops' in (s2, x :: xs)
    end.

  Lemma seq_run_app s a b :
    seq_run s (a ++ b) =
    let (s1, xs) := seq_run s a in let (s2, ys) := seq_run s1 b in (s2, xs ++ ys).
  Proof.
    revert s; induction a as [|o a IH]; intros s; cbn [app seq_run].
    - destruct (seq_run s b); reflexivity.
    - destruct (run exec (prog_of o) s) as [s1 x]. rewrite IH.
      destruct (seq_run s1 a) as [s2 xs]. destruct (seq_run s2 b) as [s3 ys]. reflexivity.
  Qed.

  Variable s0 : St.
  Variable ops : list op.
  Hypothesis starts : Forall (fun o => exists c k, prog_of o = Do c k) ops.

  Definition seqB (d : list (op * res)) (s : St) : Prop := seq_run s0 (map fst d) = (s, map snd d).
  Definition seq_todo (d : list (op * res)) (todo : list op) : Prop := map fst d ++ todo = ops.

  Lemma solo_inv n :
    th_inv St Cmd Ans exec (fun _ _ _ => True) seqB seq_todo
           (fst (asteps exec (th_next prog_of) n s0 (th_start ops)))
           (snd (asteps exec (th_next prog_of) n s0 (th_start ops))).
  Proof.
    apply (th_inv_steps St Cmd Ans exec prog_of (fun _ _ _ => True) seqB seq_todo).
    - intros d o rest s Ht Hb. apply okrun_triv; [intros; exact I|].
      unfold seqB in *. rewrite map_app, seq_run_app, Hb. cbn [map fst seq_run].
      destruct (run exec (prog_of o) s) as [s1 x]. cbn [fst snd]. rewrite map_app. reflexivity.
    - intros d o r rest Ht. unfold seq_todo in *. rewrite map_app, <- app_assoc. exact Ht.
    - apply th_inv_start; reflexivity.
  Qed.

  Lemma solo_finished n s th :
    asteps exec (th_next prog_of) n s0 (th_start ops) = (s, th) -> th_next prog_of th = None ->
    map fst (th_done th) = ops /\ seq_run s0 ops = (s, map snd (th_done th)).
  Proof.
    intros E Hn. pose proof (solo_inv n) as (Ht & Hc). rewrite E in Ht, Hc. cbn [fst snd] in Ht, Hc.
    unfold th_next in Hn. destruct (th_cur th) as [[o p]|] eqn:Ec.
    - destruct Hc as (_ & c & k & ->). discriminate.
    - unfold seq_todo in Ht. destruct (th_todo th) as [|o rest] eqn:Et.
      + rewrite app_nil_r in Ht. split; [exact Ht|]. unfold seqB in Hc. rewrite Ht in Hc. exact Hc.
      + exfalso. rewrite Forall_forall in starts.
        destruct (starts o) as (c & k & Ep); [rewrite <- Ht; apply in_or_app; right; left; reflexivity|].
        rewrite Ep in Hn. discriminate.
  Qed.
End SeqRun.

Section Interleave.
  Variables (St Cmd Ans Key L : Type).
  Variable exec : St -> Cmd -> St * Ans.
  Variable loc : St -> Key -> L.
  Variable fp : Cmd -> option (Key -> bool).
  Hypothesis exec_local : local_exec exec loc fp.
  Variable prog_of : op -> prog Cmd Ans res.

  (* one thread per x of specs: its footprint and its operations *)
  Variable X : Type.
  Variable foot : X -> Key -> bool.
  Variable ops_of : X -> list op.
  Variable s0 : St.
  Variable specs : list X.
  Hypothesis conf : forall x, In x specs -> Forall (fun o => confined fp (foot x) (prog_of o)) (ops_of x).
  Hypothesis disj : forall i j xi xj k,
      i <> j -> nth_error specs i = Some xi -> nth_error specs j = Some xj -> foot xi k = true -> foot xj k = false.

  Theorem interleave_solo sch :
    let out := sched exec (th_next prog_of) sch s0 (map (fun x => th_start (ops_of x)) specs) in
    (forall i x, nth_error specs i = Some x ->
       exists n si th, asteps exec (th_next prog_of) n s0 (th_start (ops_of x)) = (si, th) /\
                       nth_error (snd out) i = Some th /\
                       (forall k, foot x k = true -> loc (fst out) k = loc si k) /\
                       (Forall (fun o => exists c k, prog_of o = Do c k) (ops_of x) -> th_next prog_of th = None ->
                        map fst (th_done th) = ops_of x /\
                        seq_run St Cmd Ans exec prog_of s0 (ops_of x) = (si, map snd (th_done th)))) /\
    (forall k, (forall x, In x specs -> foot x k = false) -> loc (fst out) k = loc s0 k).
  Proof.
    intros out.
    set (Q := fun (F : Key -> bool) (c : Cmd) => exists f, fp c = Some f /\ forall x, f x = true -> F x = true).
    destruct (non_interference St Cmd Ans Key L exec loc fp exec_local
                (thread Cmd Ans) (th_next prog_of) (fun F => th_all Cmd Ans prog_of (confined fp F))
                (fun F => th_all_step Cmd Ans prog_of (confined fp F) (Q F) (confined_step Cmd Ans Key res fp F))
                X foot (fun x => th_start (ops_of x)) s0 specs
                (fun x Hx => th_all_start Cmd Ans prog_of _ _ (conf x Hx)) disj sch) as (_ & Hag & Hout).
    fold out in Hag, Hout. split; [|exact Hout].
    intros i x E. destruct (Hag i x E) as (n & si & th & R1 & R2 & _ & R4).
    exists n, si, th. repeat split; try assumption; eapply solo_finished; eassumption.
  Qed.
End Interleave.

(* Threads that only issue commands leaving the substrate unchanged (load,
   get) can be erased from any schedule: state and the other threads are what
   the schedule without their steps produces. *)
Section Readers.
  Variables (St Cmd Ans : Type).
  Variable exec : St -> Cmd -> St * Ans.
  Variable Ag : Type.
  Variable next : Ag -> option (Cmd * (Ans -> Ag)).
  Variable ro : Ag -> Prop.
  Hypothesis ro_step : forall a c k, ro a -> next a = Some (c, k) ->
      (forall s, fst (exec s c) = s) /\ forall ans, ro (k ans).

  Lemma readers_erase sch : forall s owners readers,
    Forall ro readers ->
    exists readers', Forall ro readers' /\ length readers' = length readers /\
      sched exec next sch s (owners ++ readers) =
      (fst (sched exec next (filter (fun i => Nat.ltb i (length owners)) sch) s owners),
       snd (sched exec next (filter (fun i => Nat.ltb i (length owners)) sch) s owners) ++ readers').
  Proof.
    induction sch as [|i sch IH]; intros s owners readers Hro; cbn [filter sched].
    - exists readers. split; [exact Hro|]. split; reflexivity.
    - destruct (Nat.ltb i (length owners)) eqn:Ei.
      + apply Nat.ltb_lt in Ei. cbn [sched]. rewrite nth_error_app1 by exact Ei.
        destruct (nth_error owners i) as [a|] eqn:Ea; [|apply nth_error_None in Ea; lia].
        destruct (astep exec next s a) as [s' a'].
        rewrite set_nth_app1 by exact Ei.
        destruct (IH s' (set_nth i a' owners) readers Hro) as (rs & H1 & H2 & H3).
        rewrite length_set_nth in H3. exists rs. repeat split; assumption.
      + apply Nat.ltb_ge in Ei. rewrite nth_error_app2 by exact Ei.
        destruct (nth_error readers (i - length owners)) as [a|] eqn:Ea; [|apply IH; exact Hro].
        assert (Ha : ro a) by (rewrite Forall_forall in Hro; apply Hro; eapply nth_error_In; exact Ea).
        unfold astep. destruct (next a) as [[c k]|] eqn:En.
        * destruct (ro_step a c k Ha En) as [Hs Hk]. specialize (Hs s).
          destruct (exec s c) as [s' ans]. cbn [fst] in Hs. subst s'.
          rewrite set_nth_app2 by exact Ei.
          destruct (IH s owners (set_nth (i - length owners) (k ans) readers)) as (rs & H1 & H2 & H3).
          { apply Forall_set_nth; [apply Hk|exact Hro]. }
          rewrite length_set_nth in H2. exists rs. repeat split; assumption.
        * rewrite set_nth_app2, (set_nth_same _ _ _ Ea) by exact Ei. apply IH. exact Hro.
  Qed.
End Readers.

Section ReadOnlyProgs.
  Variables (St Cmd Ans : Type).
  Variable exec : St -> Cmd -> St * Ans.
  Variable prog_of : op -> prog Cmd Ans res.

  Inductive ro_prog : prog Cmd Ans res -> Prop :=
  | rop_ret r : ro_prog (Ret r)
  | rop_do c k : (forall s, fst (exec s c) = s) -> (forall a, ro_prog (k a)) -> ro_prog (Do c k).

  Lemma ro_prog_run p s : ro_prog p -> fst (run exec p s) = s.
  Proof.
    induction 1 as [r|c k Hc Hk IH]; cbn [run]; [reflexivity|].
    specialize (Hc s). destruct (exec s c) as [s' a]. cbn [fst] in Hc. subst s'. apply IH.
  Qed.

  Lemma okrun_ro (I : list (op * res) -> op -> St -> Prop) (B : list (op * res) -> St -> Prop) d o p s :
    ro_prog p -> I d o s -> B (d ++ [(o, snd (run exec p s))]) s -> okrun St Cmd Ans exec I B d o s p.
  Proof.
    intros Hro HI. induction Hro as [r|c k Hc Hk IH]; cbn [run]; intros HB.
    - apply ok_ret. exact HB.
    - apply ok_do; [exact HI|]. intros s' a E. pose proof (Hc s) as Hs. rewrite E in Hs, HB. cbn [fst] in Hs. subst s'.
      apply IH. exact HB.
  Qed.

  Lemma ro_prog_step p c k :
    ro_prog p -> prog_next p = Some (c, k) -> (forall s, fst (exec s c) = s) /\ forall a, ro_prog (k a).
  Proof. intros [r|c' k' H1 H2] E; inversion E; subst. split; assumption. Qed.

  Lemma sched_length sc : forall s (ths : list (thread Cmd Ans)),
    length (snd (sched exec (th_next prog_of) sc s ths)) = length ths.
  Proof.
    induction sc as [|i sc IH]; intros s ths; cbn [sched snd]; [reflexivity|].
    destruct (nth_error ths i) as [a|]; [|apply IH].
    destruct (astep exec (th_next prog_of) s a) as [s' a']. rewrite IH, length_set_nth. reflexivity.
  Qed.

  Theorem readers_invisible (reads : op -> Prop) sch s (owners : list (thread Cmd Ans)) (reader_ops : list (list op)) :
    (forall o, reads o -> ro_prog (prog_of o)) ->
    Forall (Forall reads) reader_ops ->
    let own_sch := filter (fun i => Nat.ltb i (length owners)) sch in
    fst (sched exec (th_next prog_of) sch s (owners ++ map th_start reader_ops)) =
      fst (sched exec (th_next prog_of) own_sch s owners) /\
    firstn (length owners) (snd (sched exec (th_next prog_of) sch s (owners ++ map th_start reader_ops))) =
      snd (sched exec (th_next prog_of) own_sch s owners).
  Proof.
    intros Hreads Hro own_sch.
    destruct (readers_erase St Cmd Ans exec (thread Cmd Ans) (th_next prog_of) (th_all Cmd Ans prog_of ro_prog)
                (th_all_step Cmd Ans prog_of ro_prog _ ro_prog_step) sch s owners
                (map th_start reader_ops)) as (rs & _ & _ & E).
    { rewrite Forall_map. eapply Forall_impl; [|exact Hro]. intros ops H. apply th_all_start.
      eapply Forall_impl; [|exact H]. exact Hreads. }
    fold own_sch in E. rewrite E. cbn [fst snd]. split; [reflexivity|].
    rewrite <- (sched_length own_sch s owners), firstn_app, firstn_all, Nat.sub_diag. cbn [firstn]. apply app_nil_r.
  Qed.
End ReadOnlyProgs.
