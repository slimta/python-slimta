(* Non-vacuity examples and refutations for the queue theorems. *)
From Coq Require Import List NArith.
From SV Require Import model.Queue proof.Queue_L.
Import ListNotations.
Open Scope N_scope.

(* a fair, contract-abiding schedule with two partial-delivery rounds:
   [1;2;3] -> 1 delivered, 2 transient, 3 permanent; retry; 2 delivered *)
Definition ex_sched : list event :=
  [ EWrite true [1; 2; 3] 0; EEnqDone 0; ERelay 0 (OPartial [ROk; RTemp; RPerm]);
    EStep 0 (Some 5); EStep 0 None; EStep 0 None;       (* incr+backoff 5, set_timestamp, set_recipients_delivered + re-queue *)
    ETick; EAdvance 5; EWakeup; ETick; EGet 0; ERelay 0 OWholeOk; ERemove 0 ].

Example ex_sched_ok : ok_run ex_sched init.
Proof.
  cbn. repeat split; try exact I.
  - repeat constructor; cbn; intuition discriminate.
  - intros snd rcpts n H. cbn in H. inversion H; subst. intros r [<-|[<-|[<-|[]]]]; cbn; auto.
Qed.

Example ex_sched_result :
  let s := run ex_sched init in
  g_deliv s = [(0, 2); (0, 1)] /\ g_fail s = [(0, 3, true)] /\ s_store s = [] /\
  map (fun a => (a_rcpts a, a_n a, a_now a)) (g_atts s) = [([2], 1, 5); ([1; 2; 3], 0, 0)].
Proof. vm_compute. repeat split; reflexivity. Qed.

(* C03: an announcement that races the lazy removal of a delivered message (unfair) makes the
   queue attempt the delivered recipient again: the fairness hypothesis is needed *)
Definition unfair_sched : list event :=
  [ EWrite true [1] 0; EEnqDone 0; ERelay 0 OWholeOk; EAnnounce 0 0; ETick; EGet 0 ].

Lemma unfair_sched_not_ok : ~ ok_run unfair_sched init.
Proof. cbn. intros [_ [_ [_ [[_ H] _]]]]. exact H. Qed.

(* C01: a relay result outside the contract (a recipient with neither a success nor a relay
   error) loses that recipient: the contract hypothesis is needed *)
Definition junk_sched : list event :=
  [ EWrite true [1; 2] 0; EEnqDone 0; ERelay 0 (OPartial [ROk; RJunk]); ERemove 0 ].

Example flush_example :
  let s := run [EWrite true [1] 0; EEnqDone 0; ERelay 0 OWholeTemp; EStep 0 (Some 100); EStep 0 None; EFlush] init in
  s_queued s = [] /\ s_tasks s = [TDequeue 0 CFlush].
Proof. vm_compute. split; reflexivity. Qed.
