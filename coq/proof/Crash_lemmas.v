(* C04: a crash at any point never loses an acknowledged message (disk).
   The invariant of one thread (all operations on one message) run alone from
   an arbitrary surviving file system, lifted to every interleaving of several
   threads and every crash point by non-interference (Store_lemmas.
   frame_interleaved_disk), plus the properties of recovery. *)
From Coq Require Import List NArith Bool Lia.
From SV Require Import model.Store.
From SV Require Import proof.Prog_lemmas proof.Disk_lemmas proof.Store_lemmas.
Import ListNotations.
Open Scope N_scope.

Definition rd (d : list (op * res)) : rstore := fst (ref_run [] (map fst d)).
Definition results_ok (d : list (op * res)) : Prop := map snd d = snd (ref_run [] (map fst d)).

Lemma rd_snoc d o x : rd (d ++ [(o, x)]) = fst (ref_step (rd d) o).
Proof.
  unfold rd. rewrite map_app, ref_run_app. cbn [map fst ref_run].
  destruct (ref_run [] (map fst d)) as [r1 xs]. cbn [fst].
  destruct (ref_step r1 o) as [r2 y]. reflexivity.
Qed.

Lemma results_ok_snoc d o x :
  results_ok (d ++ [(o, x)]) <-> results_ok d /\ x = snd (ref_step (rd d) o).
Proof.
  unfold results_ok, rd. rewrite !map_app, ref_run_app. cbn [map fst snd ref_run].
  destruct (ref_run [] (map fst d)) as [r1 xs]. cbn [fst]. destruct (ref_step r1 o) as [r2 y]. cbn [snd].
  split; [apply app_inj_tail|intros [-> ->]; reflexivity].
Qed.

Section Crash.
  Variable enc_env : envelope -> bytes.
  Variable dec_env : bytes -> option envelope.
  Variable enc_meta : meta -> bytes.
  Variable dec_meta : bytes -> option meta.
  Variable chunk : wcfg.
  Hypothesis dec_enc_env : forall e, dec_env (enc_env e) = Some e.
  Hypothesis dec_enc_meta : forall m, dec_meta (enc_meta m) = Some m.
  Hypothesis enc_env_nonempty : forall e, enc_env e <> [].
  Hypothesis enc_meta_nonempty : forall m, enc_meta m <> [].
  Hypothesis chunk_pos : wcfg_ok chunk.

  Notation dprog_of := (disk_prog enc_env dec_env enc_meta dec_meta chunk).
  Notation drep := (disk_rep enc_env enc_meta).
  Notation dview := (disk_view dec_env dec_meta).

  Section OneThread.
    Variable id : N.
    Variable tmps : list N.

    Definition tmps_free (s : fs) : Prop := forall t, In t tmps -> fget s (PTmp t) = None.
    Definition meta_valid (s : fs) : Prop :=
      fget s (PMeta id) = None \/ exists m, fget s (PMeta id) = Some (enc_meta m).

    Definition dok (d : list (op * res)) : Prop := results_ok d /\ Forall (owns id) (map fst d).

    Lemma dok_snoc d o x : dok d -> owns id o -> x = snd (ref_step (rd d) o) -> dok (d ++ [(o, x)]).
    Proof.
      intros [H1 H2] Ho Hx. split; [apply results_ok_snoc; split; assumption|].
      rewrite map_app. apply Forall_app. split; [exact H2|constructor; [exact Ho|constructor]].
    Qed.

    (* between operations *)
    Definition CB (d : list (op * res)) (s : fs) : Prop :=
      dok d /\ drep s (rd d) id /\ tmps_free s.

    (* inside operation o *)
    Definition CI (d : list (op * res)) (o : op) (s : fs) : Prop :=
      dok d /\ meta_valid s /\
      match o with
      | ORemove _ => True
      | OWrite _ _ _ _ => (rlookup (rd d) id = None /\ fget s (PMeta id) = None) \/ drep s (rd d) id \/
                          drep s (fst (ref_step (rd d) o)) id
      | _ => drep s (rd d) id \/ drep s (fst (ref_step (rd d) o)) id
      end.

    Definition op_ok (o : op) : Prop :=
      owns id o /\ (forall t, In t (op_tmps o) -> In t tmps) /\ tmps_ok o.
    Definition Ctodo (d : list (op * res)) (todo : list op) : Prop :=
      wf_ops (rd d) todo = true /\ Forall op_ok todo.

    Lemma drep_meta_valid s r : drep s r id -> meta_valid s.
    Proof.
      intros Hr. destruct (rlookup r id) as [en|] eqn:E.
      - destruct (disk_live _ _ s r id en Hr E) as (e0 & m & _ & Hm & _). right. exists m. exact Hm.
      - destruct (disk_dead _ _ s r id Hr E) as [_ Hm]. left. exact Hm.
    Qed.

    Lemma agree_tmp_rep s s' t r : agree_but [PTmp t] s s' -> drep s r id -> drep s' r id.
    Proof.
      intros A. apply disk_rep_ext; [apply A; intros [E|[]]; discriminate..|reflexivity].
    Qed.

    Lemma CI_rep d o s :
      dok d -> drep s (rd d) id \/ drep s (fst (ref_step (rd d) o)) id -> CI d o s.
    Proof.
      intros Hd Hr. split; [exact Hd|]. split; [destruct Hr as [Hr|Hr]; eapply drep_meta_valid; exact Hr|].
      destruct o; try exact Hr; [right; exact Hr|exact I].
    Qed.

    Lemma tmps_free_agree s s' ps :
      agree_but ps s s' -> tmps_free s ->
      (forall t, In (PTmp t) ps -> fget s' (PTmp t) = None) -> tmps_free s'.
    Proof.
      intros A Hf Hn t Ht. destruct (in_dec path_eq_dec (PTmp t) ps) as [Hin|Hni]; [apply Hn; exact Hin|].
      rewrite (A _ Hni). apply Hf. exact Ht.
    Qed.

    Lemma crash_start_ok d o rest s :
      Ctodo d (o :: rest) -> CB d s ->
      okrun fs dcmd dans dexec CI CB d o s (dprog_of o).
    Proof.
      intros [Hwf Hops] (Hres & Hrep & Hfree). cbn [wf_ops] in Hwf. apply andb_prop in Hwf as [Hwf _].
      inversion Hops as [|? ? (Hown & Htin & Htok) _]; subst.
      pose proof (drep_meta_valid s _ Hrep) as Hmv.
      assert (HI : CI d o s) by (apply CI_rep; [exact Hres|left; exact Hrep]).
      assert (HB : forall x s2, x = snd (ref_step (rd d) o) -> drep s2 (fst (ref_step (rd d) o)) id -> tmps_free s2 ->
                                CB (d ++ [(o, x)]) s2).
      { intros x s2 Hx R2 F2. split; [apply dok_snoc; assumption|]. rewrite rd_snoc. split; assumption. }
      destruct (is_update o) eqn:Hu.
      { (* the three updates: the meta file is replaced by the one accum_step names *)
        assert (Hid : op_id o = Some id) by (destruct o; try discriminate Hu; exact Hown).
        destruct (wf_update_live _ o id Hu Hid Hwf) as [en E].
        destruct (disk_live _ _ s _ id en Hrep E) as (e & m & He & Hm & Ha).
        destruct (accum_step _ o id en e _ _ _ Hu Hid Hwf E Ha) as (en' & Ha' & Es).
        destruct (update_tmps o Hu Htok) as (t & tl & Et).
        rewrite (disk_prog_update enc_env dec_env enc_meta dec_meta chunk o id Hu Hid), Et.
        apply (okrun_update enc_meta dec_meta chunk dec_enc_meta enc_meta_nonempty chunk_pos CI CB d o id t tl _ _ s m Hm).
        - apply Hfree, Htin. rewrite Et. left; reflexivity.
        - intros s' A. apply CI_rep; [exact Hres|left; exact (agree_tmp_rep s s' t _ A Hrep)].
        - intros s2 A G F.
          assert (R2 : drep s2 (fst (ref_step (rd d) o)) id).
          { rewrite Es. apply (disk_rep_set enc_env enc_meta s2 _ id e (meta_upd o m));
              [rewrite A; [exact He|intros [E'|[E'|[]]]; discriminate]|exact G|apply meta_upd_entry, Ha']. }
          split; [apply CI_rep; [exact Hres|right; exact R2]|].
          apply HB; [rewrite Es; apply meta_res_upd|exact R2|].
          eapply tmps_free_agree; [exact A|exact Hfree|].
          intros t' [E'|[E'|[]]]; inversion E'; subst; assumption. }
      destruct o; try discriminate Hu; cbn [owns op_id op_tmps tmps_ok disk_prog] in *; try contradiction.
      - (* write: the only candidate is id *)
        subst cands. destruct tmps0 as [|t1 [|t2 tmps0]]; cbn [length] in Htok; try lia.
        assert (F1 : fget s (PTmp t1) = None) by (apply Hfree, Htin; left; reflexivity).
        assert (F2 : fget s (PTmp t2) = None) by (apply Hfree, Htin; right; left; reflexivity).
        cbn [ref_step first_free] in HB.
        destruct (rlookup (rd d) id) as [en|] eqn:E; cbn [fst snd] in HB.
        + destruct (disk_live _ _ s _ id en Hrep E) as (e0 & m0 & He & _).
          apply (okrun_write_noid enc_env enc_meta chunk CI CB).
          * intros c [<-|[]]. congruence.
          * exact HI.
          * apply HB; [reflexivity|exact Hrep|exact Hfree].
        + destruct (disk_dead _ _ s _ id Hrep E) as [He Hm].
          (* until the meta file is renamed into place there is none *)
          assert (HIm : forall s', fget s' (PMeta id) = None -> CI d (OWrite e ts [id] (t1 :: t2 :: tmps0)) s').
          { intros s' Em. split; [exact Hres|]. split; [left; exact Em|left; split; [exact E|exact Em]]. }
          apply (okrun_write enc_env enc_meta chunk enc_env_nonempty enc_meta_nonempty chunk_pos CI CB
                   d _ e ts [] id [] t1 t2 tmps0 s); try assumption.
          * intros c [].
          * intros s' A. apply HIm. rewrite A; [exact Hm|intros [E'|[]]; discriminate].
          * intros s' A G. apply HIm. rewrite A; [exact Hm|intros [E'|[E'|[E'|[]]]]; discriminate].
          * intros s2 A G1 G2 N1 N2.
            assert (R2 : drep s2 (aset N.eqb (rd d) id (mkEntry e ts 0)) id)
              by (apply (disk_rep_set enc_env enc_meta s2 _ id e (mkMeta ts 0 None)); [exact G1|exact G2|apply accum_entry_new]).
            split; [apply CI_rep; [exact Hres|right; cbn [ref_step first_free]; rewrite E; exact R2]|].
            apply HB; [reflexivity|exact R2|]. eapply tmps_free_agree; [exact A|exact Hfree|].
            intros t [E'|[E'|[E'|[E'|[]]]]]; inversion E'; subst; assumption.
      - (* get *)
        inversion Hown; subst id0.
        assert (Es : fst (ref_step (rd d) (OGet id)) = rd d) by (cbn [ref_step]; destruct (rlookup (rd d) id); reflexivity).
        apply okrun_ro; [apply readonly_ro, readonly_get| |].
        + exact HI.
        + apply HB; [|rewrite Es; exact Hrep|exact Hfree].
          apply (disk_rep_get enc_env dec_env enc_meta dec_meta dec_enc_env dec_enc_meta). exact Hrep.
      - (* remove *)
        inversion Hown; subst id0.
        apply (okrun_remove enc_env dec_env enc_meta dec_meta chunk CI CB).
        + exact HI.
        + split; [exact Hres|]. split; [|exact I].
          unfold meta_valid in *. rewrite fget_fdel_other by discriminate. exact Hmv.
        + apply HB; [reflexivity|apply disk_rep_del|].
          intros t Ht. rewrite !fget_fdel_other by discriminate. apply Hfree. exact Ht.
    Qed.

    Lemma crash_todo_next d o r rest : Ctodo d (o :: rest) -> Ctodo (d ++ [(o, r)]) rest.
    Proof.
      intros [Hwf Hops]. cbn [wf_ops] in Hwf. apply andb_prop in Hwf as [_ Hwf].
      inversion Hops; subst. split; [rewrite rd_snoc; exact Hwf|assumption].
    Qed.

    Lemma crash_solo s0 ops n :
      fget s0 (PEnv id) = None -> fget s0 (PMeta id) = None -> tmps_free s0 ->
      wf_ops [] ops = true -> Forall op_ok ops ->
      th_inv fs dcmd dans dexec CI CB Ctodo
             (fst (asteps dexec (th_next dprog_of) n s0 (th_start ops)))
             (snd (asteps dexec (th_next dprog_of) n s0 (th_start ops))).
    Proof.
      intros He Hm Hf Hwf Hops.
      apply (th_inv_steps fs dcmd dans dexec dprog_of CI CB Ctodo crash_start_ok crash_todo_next).
      apply th_inv_start.
      - split; assumption.
      - split; [split; [reflexivity|constructor]|]. split; [|exact Hf]. unfold disk_rep. cbn. split; assumption.
    Qed.
  End OneThread.

  (* what the crash theorem says about one thread in the surviving state *)
  Definition crash_ok (id : N) (s : fs) (th : disk_thread) : Prop :=
    dok id (th_done th) /\
    meta_valid id s /\
    match th_cur th with
    | None => dview s id = rlookup (rd (th_done th)) id
    | Some (ORemove _, _) => True
    | Some (OWrite e ts cands tmps, _) =>
        (rlookup (rd (th_done th)) id = None /\ fget s (PMeta id) = None) \/
        dview s id = rlookup (rd (th_done th)) id \/
        dview s id = rlookup (fst (ref_step (rd (th_done th)) (OWrite e ts cands tmps))) id
    | Some (o, _) =>
        dview s id = rlookup (rd (th_done th)) id \/
        dview s id = rlookup (fst (ref_step (rd (th_done th)) o)) id
    end.

  Lemma th_inv_crash_ok id tmps s th :
    th_inv fs dcmd dans dexec (CI id) (CB id tmps) (Ctodo id tmps) s th -> crash_ok id s th.
  Proof.
    intros Hinv. unfold crash_ok.
    pose proof (fun r => disk_rep_view enc_env dec_env enc_meta dec_meta dec_enc_env dec_enc_meta s r id) as drep_view.
    destruct (th_cur th) as [[o p]|] eqn:Ec.
    - destruct (th_inv_cur _ _ _ _ _ _ _ s th o p Hinv Ec) as (Hres & Hmv & Hi).
      split; [exact Hres|]. split; [exact Hmv|].
      destruct o; try exact I;
        try (destruct Hi as [Hi|Hi]; [left|right]; apply drep_view; exact Hi).
      destruct Hi as [Hi|[Hi|Hi]]; [left; exact Hi|right; left; apply drep_view; exact Hi|right; right; apply drep_view; exact Hi].
    - destruct Hinv as (_ & Hc). rewrite Ec in Hc. destruct Hc as (Hres & Hrep & _).
      split; [exact Hres|]. split; [eapply drep_meta_valid; exact Hrep|apply drep_view; exact Hrep].
  Qed.

  Lemma crash_ok_ext id s s' th :
    fget s' (PEnv id) = fget s (PEnv id) -> fget s' (PMeta id) = fget s (PMeta id) ->
    crash_ok id s th -> crash_ok id s' th.
  Proof.
    intros E1 E2 (H1 & H2 & H3). unfold crash_ok, meta_valid in *.
    rewrite (disk_view_ext dec_env dec_meta s s' id E2 E1), E2.
    split; [exact H1|]. split; [exact H2|exact H3].
  Qed.

  Definition cspec_ok (s0 : fs) (sp : dspec) : Prop :=
    let '(id, tmps, ops) := sp in
    fget s0 (PEnv id) = None /\ fget s0 (PMeta id) = None /\
    (forall t, In t tmps -> fget s0 (PTmp t) = None) /\
    wf_ops [] ops = true /\ Forall (op_ok id tmps) ops.

  Lemma cspec_dspec s0 sp : cspec_ok s0 sp -> dspec_ok sp.
  Proof.
    destruct sp as [[id tmps] ops]. intros (_ & _ & _ & _ & H). cbn [dspec_ok].
    eapply Forall_impl; [|exact H]. intros o (H1 & H2 & _). split; assumption.
  Qed.

  Theorem crash_safe s0 (specs : list dspec) sch :
    NoDup (map (fun sp => fst (fst sp)) specs) ->
    (forall i j spi spj t, i <> j -> nth_error specs i = Some spi -> nth_error specs j = Some spj ->
                           In t (snd (fst spi)) -> ~ In t (snd (fst spj))) ->
    Forall (cspec_ok s0) specs ->
    let out := sched dexec (th_next dprog_of) sch s0 (map (fun sp => th_start (snd sp)) specs) in
    (forall i id tmps ops, nth_error specs i = Some (id, tmps, ops) ->
       exists th, nth_error (snd out) i = Some th /\ crash_ok id (fst out) th) /\
    (forall q, (forall sp, In sp specs -> dfoot (fst (fst sp)) (snd (fst sp)) q = false) -> fget (fst out) q = fget s0 q).
  Proof.
    intros Hnd Htd Hok out.
    assert (Hds : Forall dspec_ok specs) by (eapply Forall_impl; [|exact Hok]; intros sp; apply cspec_dspec).
    destruct (frame_interleaved_disk enc_env dec_env enc_meta dec_meta chunk s0 specs sch Hnd Htd Hds) as [H1 H2].
    fold out in H1, H2. split; [|exact H2].
    intros i id tmps ops E.
    destruct (H1 i id tmps ops E) as (n & si & th & R1 & R2 & Le & Lm & _ & _).
    exists th. split; [exact R2|].
    rewrite Forall_forall in Hok. pose proof (Hok _ (nth_error_In _ _ E)) as (A1 & A2 & A3 & A4 & A5).
    pose proof (crash_solo id tmps s0 ops n A1 A2 A3 A4 A5) as Hinv. rewrite R1 in Hinv. cbn [fst snd] in Hinv.
    apply (crash_ok_ext id si (fst out) th Le Lm). eapply th_inv_crash_ok. exact Hinv.
  Qed.

  Lemma recover_get_of_view s id en :
    dview s id = Some en -> recover_get dec_env dec_meta s id = RGot (en_env en) (en_att en).
  Proof. intros H. unfold recover_get. rewrite (get_run_view dec_env dec_meta s id en H). reflexivity. Qed.

  Lemma view_listed s id en :
    metas_ok dec_meta s -> dview s id = Some en ->
    exists l, recover_load enc_env dec_env enc_meta dec_meta chunk s = RLoad l /\ In (en_ts en, id) l.
  Proof.
    intros Hok Hv. unfold recover_load. rewrite (load_run enc_env dec_env enc_meta dec_meta chunk s 0 Hok). cbn [snd].
    eexists. split; [reflexivity|]. apply In_load_list.
    destruct (disk_view_some dec_env dec_meta s id en Hv) as (mb & eb & m & e & l & Em & Ee & Ed & _ & _ & ->).
    split; [apply env_ids_In; congruence|]. exists mb, m. auto.
  Qed.

  Lemma recover_load_spec s :
    metas_ok dec_meta s ->
    exists l, recover_load enc_env dec_env enc_meta dec_meta chunk s = RLoad l /\ NoDup l /\
              forall ts id, In (ts, id) l <->
                fget s (PEnv id) <> None /\ exists b m, fget s (PMeta id) = Some b /\ dec_meta b = Some m /\ m_ts m = ts.
  Proof.
    intros Hok. unfold recover_load. rewrite (load_run enc_env dec_env enc_meta dec_meta chunk s 0 Hok). cbn [snd].
    eexists. split; [reflexivity|]. split; [eapply NoDup_map_inv, NoDup_load_list, env_ids_NoDup|].
    intros ts id. rewrite In_load_list, env_ids_In. reflexivity.
  Qed.

  Lemma recover_load_In s ts id :
    metas_ok dec_meta s ->
    (exists l, recover_load enc_env dec_env enc_meta dec_meta chunk s = RLoad l /\ In (ts, id) l) <->
    fget s (PEnv id) <> None /\ exists b m, fget s (PMeta id) = Some b /\ dec_meta b = Some m /\ m_ts m = ts.
  Proof.
    intros Hok. destruct (recover_load_spec s Hok) as (l & El & _ & Hl). rewrite <- Hl. split.
    - intros (l0 & E0 & Hin). rewrite El in E0. inversion E0; subst l0. exact Hin.
    - intros Hin. exists l. split; assumption.
  Qed.

  Lemma crash_metas_ok s0 (specs : list dspec) sch :
    NoDup (map (fun sp => fst (fst sp)) specs) ->
    (forall i j spi spj t, i <> j -> nth_error specs i = Some spi -> nth_error specs j = Some spj ->
                           In t (snd (fst spi)) -> ~ In t (snd (fst spj))) ->
    Forall (cspec_ok s0) specs -> metas_ok dec_meta s0 ->
    metas_ok dec_meta (fst (sched dexec (th_next dprog_of) sch s0 (map (fun sp => th_start (snd sp)) specs))).
  Proof.
    intros Hnd Htd Hok Hm0 id b E.
    destruct (crash_safe s0 specs sch Hnd Htd Hok) as [H1 H2].
    destruct (in_dec N.eq_dec id (map (fun sp : dspec => fst (fst sp)) specs)) as [Hin|Hni].
    - apply in_map_iff in Hin as ([[id' tmps] ops] & Eid & Hsp). cbn [fst] in Eid. subst id'.
      destruct (In_nth_error _ _ Hsp) as (i & Ei).
      destruct (H1 i id tmps ops Ei) as (th & _ & (_ & Hmv & _)).
      destruct Hmv as [Hn|(m & Hm)]; [congruence|]. rewrite Hm in E. inversion E; subst b.
      rewrite dec_enc_meta. discriminate.
    - rewrite H2 in E; [exact (Hm0 id b E)|].
      intros [[id' tmps] ops] Hsp. cbn [fst snd dfoot]. apply N.eqb_neq. intros ->.
      apply Hni. apply in_map_iff. exists (id, tmps, ops). split; [reflexivity|exact Hsp].
  Qed.

  Definition is_remove (o : op) : bool := match o with ORemove _ => true | _ => false end.

  Lemma ref_step_keeps id r o en :
    rlookup r id = Some en -> is_remove o = false ->
    exists en1, rlookup (fst (ref_step r o)) id = Some en1 /\
                e_sender (en_env en1) = e_sender (en_env en) /\ e_content (en_env en1) = e_content (en_env en).
  Proof.
    intros E Hr.
    destruct (ref_target_dec r o id) as [T|T]; [|exists en; rewrite ref_step_frame by exact T; auto].
    destruct o; cbn [ref_target op_id is_remove] in *; try discriminate;
      [destruct (first_free_spec _ _ _ T); congruence|inversion T; subst id0; cbn [ref_step]; rewrite E..].
    - cbn [fst]. unfold rlookup. rewrite nget_set_same. eexists. repeat split.
    - cbn [fst]. unfold rlookup. rewrite nget_set_same. eexists. repeat split.
    - destruct (round idxs (e_rcpts (en_env en))); cbn [fst]; [|exists en; auto].
      unfold rlookup. rewrite nget_set_same. eexists. repeat split.
    - exists en. auto.
  Qed.

  Lemma acked_live id d e ts c t :
    results_ok d -> forall pre post, d = pre ++ (OWrite e ts c t, RId id) :: post ->
    forallb (fun o => negb (is_remove o)) (map fst post) = true ->
    exists en, rlookup (rd d) id = Some en /\
               e_sender (en_env en) = e_sender e /\ e_content (en_env en) = e_content e.
  Proof.
    intros Hres pre post. revert d Hres. induction post as [|[o x] post IH] using rev_ind; intros d Hres -> Hnr.
    - apply results_ok_snoc in Hres as [_ Hx]. rewrite rd_snoc.
      destruct (ref_step (rd pre) (OWrite e ts c t)) as [r2 y] eqn:E2. cbn [snd] in Hx. subst y.
      destruct (ref_write_fresh _ _ _ _ _ _ _ E2) as (_ & _ & Hl). exists (mkEntry e ts 0). auto.
    - rewrite app_comm_cons, app_assoc in Hres |- *. apply results_ok_snoc in Hres as [Hres _].
      rewrite map_app, forallb_app in Hnr. apply andb_prop in Hnr as [Hn1 Hn2].
      cbn [map fst forallb] in Hn2. rewrite andb_true_r in Hn2. apply negb_true_iff in Hn2.
      destruct (IH _ Hres eq_refl Hn1) as (en & E & S & C). rewrite rd_snoc.
      destruct (ref_step_keeps id _ o en E Hn2) as (en1 & E1 & S1 & C1).
      exists en1. split; [exact E1|]. split; congruence.
  Qed.

  Theorem crash_ok_acked id s th :
    crash_ok id s th -> metas_ok dec_meta s ->
    forall pre post e ts c t,
      th_done th = pre ++ (OWrite e ts c t, RId id) :: post ->
      forallb (fun o => negb (is_remove o)) (map fst post) = true ->
      (forall o p, th_cur th = Some (o, p) -> is_remove o = false) ->
      exists en, dview s id = Some en /\
                 e_sender (en_env en) = e_sender e /\ e_content (en_env en) = e_content e /\
                 recover_get dec_env dec_meta s id = RGot (en_env en) (en_att en) /\
                 exists l, recover_load enc_env dec_env enc_meta dec_meta chunk s = RLoad l /\ In (en_ts en, id) l.
  Proof.
    intros ([Hres Hown] & Hmv & Hc) Hm pre post e ts c t Ed Hnr Hcur.
    destruct (acked_live id (th_done th) e ts c t Hres pre post Ed Hnr) as (en0 & E0 & S0 & C0).
    assert (Hv : exists en, dview s id = Some en /\
                            e_sender (en_env en) = e_sender e /\ e_content (en_env en) = e_content e).
    { destruct (th_cur th) as [[o p]|] eqn:Ec; [|exists en0; rewrite Hc; auto].
      specialize (Hcur o p eq_refl).
      destruct (ref_step_keeps id _ o en0 E0 Hcur) as (en1 & E1 & S1 & C1).
      assert (Hc' : dview s id = rlookup (rd (th_done th)) id \/
                    dview s id = rlookup (fst (ref_step (rd (th_done th)) o)) id).
      { destruct o; try discriminate Hcur; try exact Hc. destruct Hc as [[Hn _]|Hc]; [congruence|exact Hc]. }
      destruct Hc' as [Hc'|Hc']; rewrite Hc'; [exists en0; auto|exists en1; split; [exact E1|split; congruence]]. }
    destruct Hv as (en & Hv & S & C). exists en. split; [exact Hv|]. split; [exact S|]. split; [exact C|].
    split; [apply recover_get_of_view; exact Hv|apply view_listed; assumption].
  Qed.

  Lemma cleanup_closes (p : dprog) c : In c (cleanup_of p) -> exists t, c = CClose t.
  Proof.
    destruct p as [r|c0 k]; cbn [cleanup_of]; [intros []|].
    destruct c0; cbn [In]; intros H; try (destruct H as [<-|[]]; eauto); try (destruct H).
  Qed.

  Lemma run_cmds_closes s cs : (forall c, In c cs -> exists t, c = CClose t) -> run_cmds s cs = s.
  Proof.
    unfold run_cmds. revert s; induction cs as [|c cs IH]; intros s H; [reflexivity|].
    cbn [fold_left]. destruct (H c (or_introl eq_refl)) as (t & ->). cbn [dexec fst].
    apply IH. intros c' Hc'. apply H. right; exact Hc'.
  Qed.

  Lemma th_cleanup_closes (th : disk_thread) c : In c (th_cleanup th) -> exists t, c = CClose t.
  Proof. unfold th_cleanup. destruct (th_cur th) as [[o p]|]; [apply cleanup_closes|intros []]. Qed.

  Lemma abort_equals_crash s (ths : list disk_thread) : abort_all s ths = s.
  Proof.
    unfold abort_all. apply run_cmds_closes. intros c Hc. apply in_flat_map in Hc as (th & _ & Hc).
    apply (th_cleanup_closes th c Hc).
  Qed.
End Crash.
